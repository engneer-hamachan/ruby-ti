(* C19, C20: what a lookup sees after loading is a function of the declarations of its class *)
From Coq Require Import Permutation.
From RT Require Import Model.Loader.

Lemma mkey_eqb_eq a b : mkey_eqb a b = true <-> a = b.
Proof.
  destruct a as [[[f1 c1] m1] s1], b as [[[f2 c2] m2] s2]. unfold mkey_eqb. split.
  - intros [[[Hf Hc]%andb_true_iff Hm]%andb_true_iff Hs]%andb_true_iff.
    apply String.eqb_eq in Hf, Hc, Hm. apply Bool.eqb_prop in Hs. congruence.
  - intros [= -> -> -> ->]. rewrite !String.eqb_refl, Bool.eqb_reflx. reflexivity.
Qed.

Lemma node_eqb_eq a b : node_eqb a b = true <-> a = b.
Proof.
  destruct a as [f1 c1], b as [f2 c2]. unfold node_eqb. cbn [fst snd]. split.
  - intros [Hf Hc]%andb_true_iff. apply String.eqb_eq in Hf, Hc. congruence.
  - intros [= -> ->]. rewrite !String.eqb_refl. reflexivity.
Qed.

Section AssocP.
  Context {K V : Type} (eqb : K -> K -> bool).
  Hypothesis eqb_eq : forall a b, eqb a b = true <-> a = b.

  Lemma aget_aset (l : list (K * V)) k v k' :
    aget eqb (aset eqb l k v) k' = if eqb k' k then Some v else aget eqb l k'.
  Proof.
    induction l as [|[k0 v0] r IH]; cbn [aset aget]; [reflexivity|].
    destruct (eqb k k0) eqn:E; cbn [aget].
    - apply eqb_eq in E. subst k0. destruct (eqb k' k); reflexivity.
    - rewrite IH. destruct (eqb k' k0) eqn:E0, (eqb k' k) eqn:E1; try reflexivity.
      apply eqb_eq in E0, E1. subst. rewrite (proj2 (eqb_eq k0 k0) eq_refl) in E. discriminate.
  Qed.
End AssocP.

(* the entry of a key in a table of lists, absent = empty: methods_at and edges_at on the bare tables *)
Definition entry {K V} (eqb : K -> K -> bool) (l : list (K * list V)) (k : K) : list V :=
  match aget eqb l k with Some l => l | None => [] end.

Lemma define_method_at ms k d k' :
  entry mkey_eqb (define_method ms k d) k' = entry mkey_eqb ms k' ++ (if mkey_eqb k' k then [d] else []).
Proof.
  unfold entry, define_method. rewrite (aget_aset mkey_eqb mkey_eqb_eq).
  destruct (mkey_eqb k' k) eqn:E.
  - apply mkey_eqb_eq in E. subst k'. destruct (aget mkey_eqb ms k); reflexivity.
  - rewrite app_nil_r. reflexivity.
Qed.

Lemma define_fold_at (key : mdecl -> mkey) ds : forall ms k',
  entry mkey_eqb (fold_left (fun ms d => define_method ms (key d) d) ds ms) k' =
  entry mkey_eqb ms k' ++ filter (fun d => mkey_eqb k' (key d)) ds.
Proof.
  induction ds as [|d r IH]; intros ms k'; cbn [fold_left filter].
  - rewrite app_nil_r. reflexivity.
  - rewrite IH, define_method_at. destruct (mkey_eqb k' (key d)); rewrite <- app_assoc; reflexivity.
Qed.

Lemma filter_guard {A} (b : bool) (p : A -> bool) l : filter (fun x => b && p x) l = if b then filter p l else [].
Proof. destruct b; [reflexivity|]. induction l; [reflexivity|assumption]. Qed.

(* the declarations under a full key: those of the class and kind, then by name *)
Lemma filter_key f c s f' c' m' s' ds :
  filter (fun d => mkey_eqb (f', c', m', s') (f, c, md_name d, s)) ds =
  if String.eqb f' f && String.eqb c' c && Bool.eqb s' s then filter (fun d => String.eqb m' (md_name d)) ds else [].
Proof.
  rewrite <- filter_guard. apply filter_ext. intros d. unfold mkey_eqb.
  rewrite <- !andb_assoc. do 2 f_equal. apply andb_comm.
Qed.

Lemma load_one_methods w cd k : methods_at (load_one w cd) k = methods_at w k ++ decls_for cd k.
Proof.
  destruct k as [[[f c] m] s]. unfold load_one, decls_for.
  destruct (is_name_space (cd_class cd)); [rewrite app_nil_r; reflexivity|].
  unfold methods_at. cbn [w_methods].
  change (match aget mkey_eqb ?x ?k with Some l => l | None => [] end) with (entry mkey_eqb x k).
  rewrite !define_fold_at, !filter_key, <- app_assoc. f_equal.
  destruct (String.eqb f (cd_frame cd) && String.eqb c (cd_class cd)); [|reflexivity].
  destruct s; [reflexivity|apply app_nil_r].
Qed.

Theorem load_methods_spec cds : forall w k,
  methods_at (fold_left load_one cds w) k = methods_at w k ++ spec_methods cds k.
Proof.
  induction cds as [|cd r IH]; intros w k; cbn [fold_left spec_methods flat_map].
  - rewrite app_nil_r. reflexivity.
  - rewrite IH, load_one_methods, <- app_assoc. reflexivity.
Qed.

Corollary load_methods cds k : methods_at (load cds) k = spec_methods cds k.
Proof. unfold load. rewrite load_methods_spec. reflexivity. Qed.

Definition class_id (cd : classdef) : string * string := (cd_frame cd, cd_class cd).

Definition mentions (cd : classdef) (f c : string) : bool := String.eqb f (cd_frame cd) && String.eqb c (cd_class cd).

Lemma mentions_iff cd f c : mentions cd f c = true <-> (f, c) = class_id cd.
Proof. exact (node_eqb_eq (f, c) (class_id cd)). Qed.

Lemma decls_for_other cd f c m s : mentions cd f c = false -> decls_for cd (f, c, m, s) = [].
Proof. unfold mentions, decls_for. intros ->. destruct (is_name_space (cd_class cd)); reflexivity. Qed.

(* C19, file names: with one file per class, any load order gives the same method table *)
Theorem spec_methods_perm cds cds' k :
  Permutation cds cds' -> NoDup (map class_id cds) -> spec_methods cds k = spec_methods cds' k.
Proof.
  unfold spec_methods. destruct k as [[[f c] m] s].
  induction 1 as [|x l l' _ IH|x y l|l l' l'' H1 IH1 _ IH2]; cbn [flat_map map]; intros Hnd.
  - reflexivity.
  - rewrite IH; [reflexivity|]. apply NoDup_cons_iff in Hnd. apply Hnd.
  - (* two files are swapped: they declare different classes, so one of them is silent on (f, c) *)
    destruct (mentions x f c) eqn:Ex; [|rewrite (decls_for_other x) by exact Ex; reflexivity].
    destruct (mentions y f c) eqn:Ey; [|rewrite (decls_for_other y) by exact Ey; reflexivity].
    apply mentions_iff in Ex, Ey. apply NoDup_cons_iff in Hnd as [Hin _]. exfalso. apply Hin. left. congruence.
  - rewrite IH1 by exact Hnd. apply IH2. eapply Permutation_NoDup; [apply Permutation_map; exact H1|exact Hnd].
Qed.

(* C19, splitting: one class's method declarations distributed over two files *)
Definition with_methods (cd : classdef) (ims cms : list mdecl) : classdef :=
  {| cd_frame := cd_frame cd; cd_class := cd_class cd; cd_ims := ims; cd_cms := cms;
     cd_consts := cd_consts cd; cd_extends := cd_extends cd |}.

Lemma app_comm_nil {A} (x y : list A) : x = [] \/ y = [] -> x ++ y = y ++ x.
Proof. intros [-> | ->]; rewrite app_nil_r; reflexivity. Qed.

(* no method name is declared in both lists *)
Definition names_apart (a b : list mdecl) : Prop :=
  forall m, filter (fun d => String.eqb m (md_name d)) a = [] \/ filter (fun d => String.eqb m (md_name d)) b = [].

(* the declarative table is additive in the method lists of a file, and the two pieces commute when they share
   no method name *)
Lemma decls_for_split cd i1 i2 c1 c2 k :
  names_apart i1 i2 -> names_apart c1 c2 ->
  let d1 := decls_for (with_methods cd i1 c1) k in let d2 := decls_for (with_methods cd i2 c2) k in
  decls_for (with_methods cd (i1 ++ i2) (c1 ++ c2)) k = d1 ++ d2 /\ d1 ++ d2 = d2 ++ d1.
Proof.
  intros Hi Hc. destruct k as [[[f c] m] s]. unfold decls_for, with_methods. cbn [cd_class cd_frame cd_ims cd_cms].
  destruct (is_name_space (cd_class cd)); [split; reflexivity|].
  destruct (String.eqb f (cd_frame cd) && String.eqb c (cd_class cd)); [|split; reflexivity].
  destruct s; (split; [apply filter_app|apply app_comm_nil; trivial]).
Qed.

(* C20: declarations of other classes are invisible to a lookup *)
Lemma spec_methods_other extra f c m s :
  forallb (fun cd => negb (mentions cd f c)) extra = true -> spec_methods extra (f, c, m, s) = [].
Proof.
  unfold spec_methods. induction extra as [|cd r IH]; cbn [forallb flat_map]; [reflexivity|].
  intros [H1 H2]%andb_true_iff. apply negb_true_iff in H1. rewrite (decls_for_other cd) by exact H1. exact (IH H2).
Qed.

Lemma spec_methods_app cds cds' k : spec_methods (cds ++ cds') k = spec_methods cds k ++ spec_methods cds' k.
Proof. apply flat_map_app. Qed.

Lemma add_edge_other es n p dd n' :
  n' <> n -> entry node_eqb (add_edge es n p dd) n' = entry node_eqb es n'.
Proof.
  intros Hne. unfold add_edge, entry. destruct (dd && existsb _ _); [reflexivity|].
  rewrite (aget_aset node_eqb node_eqb_eq).
  destruct (node_eqb n' n) eqn:E; [apply node_eqb_eq in E; congruence|reflexivity].
Qed.

Lemma fold_left_keeps {A B C} (obs : A -> C) (f : A -> B -> A) l :
  (forall a b, In b l -> obs (f a b) = obs a) -> forall a, obs (fold_left f l a) = obs a.
Proof.
  induction l as [|b r IH]; intros H a; cbn [fold_left]; [reflexivity|].
  rewrite IH; [apply H; left; reflexivity|]. intros a' b' Hb. apply H. right. exact Hb.
Qed.

Lemma load_one_edges_other w cd n :
  mentions cd (fst n) (snd n) = false -> edges_at (load_one w cd) n = edges_at w n.
Proof.
  intros Hm. assert (Hne : n <> class_id cd).
  { intros E. destruct n as [f c]. apply mentions_iff in E. cbn [fst snd] in Hm. congruence. }
  unfold load_one. destruct (is_name_space (cd_class cd)); [reflexivity|].
  unfold edges_at. cbn [w_edges].
  change (match aget node_eqb ?x ?k with Some l => l | None => [] end) with (entry node_eqb x k).
  rewrite (fold_left_keeps (fun es => entry node_eqb es n)) by (intros; apply add_edge_other, Hne).
  destruct (negb _ && negb _); [apply add_edge_other, Hne|reflexivity].
Qed.
