(* Proofs about Model/Args.v: the admission test (C07/C08), the positional walk against its declarative
   reading pos_spec (C07/C08/C26), and keyword order (C14) *)
From Coq Require Import Permutation.
From RT Require Import Model.CallSpec Proofs.SortP.

Lemma forallb_impl {A} (f g : A -> bool) l :
  (forall x, f x = true -> g x = true) -> forallb f l = true -> forallb g l = true.
Proof. intros H Hf. rewrite forallb_forall in Hf. apply forallb_forall. auto. Qed.

Lemma existsb_false {A} (f : A -> bool) l : existsb f l = false <-> forall x, In x l -> f x = false.
Proof.
  split.
  - intros H x Hx. destruct (f x) eqn:E; [|reflexivity]. rewrite <- H. symmetry. apply existsb_exists. eauto.
  - intros H. apply not_true_iff_false. intros (x & Hx & E)%existsb_exists. rewrite (H x Hx) in E. discriminate.
Qed.

Lemma forallb_skipn {A} (p : A -> bool) n : forall l, forallb p l = true -> forallb p (skipn n l) = true.
Proof.
  induction n as [|n IH]; intros [|x r] H; try exact H.
  apply andb_true_iff in H as [_ H]. exact (IH r H).
Qed.

Lemma filter_all {A} (p : A -> bool) l : forallb p l = true -> filter p l = l.
Proof.
  induction l as [|x r IH]; cbn; [reflexivity|]. intros [-> Hr]%andb_true_iff. rewrite IH by exact Hr. reflexivity.
Qed.
Lemma filter_none {A} (p : A -> bool) l : forallb (fun x => negb (p x)) l = true -> filter p l = [].
Proof.
  induction l as [|x r IH]; cbn; [reflexivity|]. intros [->%negb_true_iff Hr]%andb_true_iff. exact (IH Hr).
Qed.

Lemma skipn_tl {A} i : forall l : list A, skipn (S i) l = tl (skipn i l).
Proof. induction i as [|i IH]; intros [|x r]; try reflexivity. apply (IH r). Qed.

Lemma skipn_nth_cons {A} (d : A) : forall i (l : list A), i < List.length l -> skipn i l = nth i l d :: skipn (S i) l.
Proof. induction i as [|i IH]; intros [|x r] H; cbn in *; try lia; [reflexivity|]. apply IH. lia. Qed.

Lemma nth_skipn_add {A} (d : A) : forall n j (l : list A), nth j (skipn n l) d = nth (n + j) l d.
Proof. induction n as [|n IH]; intros j [|x r]; try reflexivity; [destruct j; reflexivity|apply IH]. Qed.

Lemma forallb_skipn_nth {A} (f : A -> bool) (d : A) n l :
  forallb f (skipn n l) = true <-> forall i, n <= i < List.length l -> f (nth i l d) = true.
Proof.
  split.
  - intros H i Hi. rewrite forallb_forall in H. replace i with (n + (i - n)) by lia. rewrite <- nth_skipn_add.
    apply H, nth_In. rewrite skipn_length. lia.
  - intros H. apply forallb_forall. intros x (j & Hj & <-)%(In_nth _ _ d). rewrite skipn_length in Hj.
    rewrite nth_skipn_add. apply H. lia.
Qed.

Lemma NoDup_map_inj {A B} (f : A -> B) l x y : NoDup (map f l) -> In x l -> In y l -> f x = f y -> x = y.
Proof.
  induction l as [|z r IH]; cbn [map In]; [easy|]. intros [Hz Hr]%NoDup_cons_iff Hx Hy E.
  destruct Hx as [->|Hx], Hy as [->|Hy]; auto; exfalso; apply Hz; [rewrite E | rewrite <- E]; apply in_map; assumption.
Qed.

Lemma str_ltb_cons x r y s :
  str_ltb (String x r) (String y s) =
  match (nat_of_ascii x ?= nat_of_ascii y)%nat with Lt => true | Eq => str_ltb r s | Gt => false end.
Proof.
  cbn [str_ltb]. rewrite !Nat.ltb_compare, (Nat.compare_antisym (nat_of_ascii x)).
  destruct (nat_of_ascii x ?= nat_of_ascii y)%nat; reflexivity.
Qed.

Lemma str_ltb_irrefl a : str_ltb a a = false.
Proof. induction a as [|x r IH]; [reflexivity|]. rewrite str_ltb_cons, Nat.compare_refl. exact IH. Qed.

Lemma nat_of_ascii_inj x y : nat_of_ascii x = nat_of_ascii y -> x = y.
Proof. intros H. rewrite <- (ascii_nat_embedding x), <- (ascii_nat_embedding y), H. reflexivity. Qed.

Lemma str_ltb_trans a : forall b c, str_ltb a b = true -> str_ltb b c = true -> str_ltb a c = true.
Proof.
  induction a as [|x r IH]; intros [|y s] [|z u]; try discriminate; auto. rewrite !str_ltb_cons.
  destruct (Nat.compare_spec (nat_of_ascii x) (nat_of_ascii y)) as [->|L1|]; [| |discriminate].
  - destruct (Nat.compare_spec (nat_of_ascii y) (nat_of_ascii z)); [apply IH | auto | discriminate].
  - destruct (Nat.compare_spec (nat_of_ascii y) (nat_of_ascii z)) as [E2|L2|]; [| |discriminate]; intros _ _.
    + rewrite <- E2, (proj2 (Nat.compare_lt_iff _ _) L1). reflexivity.
    + rewrite (proj2 (Nat.compare_lt_iff _ _) (Nat.lt_trans _ _ _ L1 L2)). reflexivity.
Qed.

Lemma str_ltb_asym a b : str_ltb a b = true -> str_ltb b a = false.
Proof.
  intros H. destruct (str_ltb b a) eqn:E; [|reflexivity].
  rewrite <- (str_ltb_irrefl a). symmetry. exact (str_ltb_trans _ _ _ H E).
Qed.

Lemma str_ltb_antisym_eq a : forall b, str_ltb a b = false -> str_ltb b a = false -> a = b.
Proof.
  induction a as [|x r IH]; intros [|y s]; try discriminate; auto. rewrite !str_ltb_cons, (Nat.compare_antisym (nat_of_ascii x)).
  destruct (Nat.compare_spec (nat_of_ascii x) (nat_of_ascii y)) as [E| |]; [|discriminate..].
  intros H1 H2. f_equal; [apply nat_of_ascii_inj, E | apply IH; assumption].
Qed.

Lemma str_order : total_order str_leb.
Proof.
  unfold str_leb. split.
  - intros a b H%negb_false_iff. rewrite (str_ltb_asym _ _ H). reflexivity.
  - intros a b c H1%negb_true_iff H2%negb_true_iff. destruct (str_ltb c a) eqn:E; [|reflexivity].
    (* c < a, not (b < a), not (c < b): so a <= b <= c < a *)
    destruct (str_ltb a b) eqn:Eab.
    + pose proof (str_ltb_trans _ _ _ E Eab). congruence.
    + pose proof (str_ltb_antisym_eq _ _ Eab H1). congruence.
  - intros a b H1%negb_true_iff H2%negb_true_iff. apply str_ltb_antisym_eq; assumption.
Qed.

(* Args.sort_by is SortP.sort for the order of the keys; sorting is then a function of the multiset when the keys are
   pairwise distinct *)
Lemma sort_by_perm {A} (key : A -> string) l l' :
  Permutation l l' -> NoDup (map key l) -> sort_by key l = sort_by key l'.
Proof.
  intros Hp Hnd.
  destruct str_order as [Htot Htrans Hanti].
  apply sort_perm_on; [intros a b; apply Htot | intros a b c; apply Htrans | exact Hp |].
  intros x y Hx Hy H1 H2. exact (NoDup_map_inj key l x y Hnd Hx Hy (Hanti _ _ H1 H2)).
Qed.

Lemma filter_perm {A} (p : A -> bool) l l' : Permutation l l' -> Permutation (filter p l) (filter p l').
Proof.
  induction 1; cbn [filter].
  - constructor.
  - destruct (p x); [constructor|]; assumption.
  - destruct (p x), (p y); try constructor; apply Permutation_refl.
  - eapply Permutation_trans; eassumption.
Qed.

Lemma prioritize_args_split pos kws :
  forallb (fun a => negb (is_keyvalue_type a)) pos = true -> forallb is_keyvalue_type kws = true ->
  prioritize_args (pos ++ kws) = pos ++ sort_by t_key kws.
Proof.
  intros Hpos Hkw. unfold prioritize_args.
  rewrite !filter_app, (filter_all _ pos Hpos), (filter_none _ pos Hpos), (filter_all _ kws Hkw), filter_none, app_nil_r;
    [reflexivity|].
  revert Hkw. apply forallb_impl. intros x ->. reflexivity.
Qed.

(* tag_code is injective: it has a left inverse, the position in all_tags *)
Lemma tag_eqb_eq a b : tag_eqb a b = true <-> a = b.
Proof.
  split; [|intros ->; apply Z.eqb_refl]. intros H%Z.eqb_eq.
  assert (D : forall c, nth (Z.to_nat (tag_code c - 256)) all_tags NIL = c) by (intros []; reflexivity).
  rewrite <- (D a), H. apply D.
Qed.

Lemma tag_eqb_sym a b : tag_eqb a b = tag_eqb b a.
Proof. unfold tag_eqb. apply Z.eqb_sym. Qed.

(* the spec: a value's class is its tag plus, for objects, the class name.  Both sides are decided by whether the
   two tags are OBJECT and whether they are equal *)
Lemma match_kind v x : is_union_type v = false -> is_match_type v x = kind_eqb (kind_of v) (kind_of x).
Proof.
  unfold is_match_type, kind_eqb, kind_of, tag_is, tag_eqb. cbn [fst snd]. intros ->. cbn [andb].
  destruct (Z.eqb_spec (tag_code (t_tag v)) (tag_code OBJECT)), (Z.eqb_spec (tag_code (t_tag x)) (tag_code OBJECT)),
    (Z.eqb_spec (tag_code (t_tag v)) (tag_code (t_tag x))); try congruence; reflexivity.
Qed.

Lemma variants_of_union a : is_union_type a = true -> variants_of a = t_vars a.
Proof. unfold variants_of. intros ->. reflexivity. Qed.
Lemma variants_of_plain a : is_union_type a = false -> variants_of a = [a].
Proof. unfold variants_of. intros ->. reflexivity. Qed.

Lemma union_excludes a : is_union_type a = true -> is_any_type a = false /\ is_unknown_type a = false.
Proof.
  intros H%tag_eqb_eq. unfold is_any_type, is_unknown_type, tag_is. rewrite H. split; [reflexivity | apply andb_false_r].
Qed.
Lemma union_no_match d a : is_union_type d = false -> is_union_type a = true -> is_match_type d a = false.
Proof.
  intros Hd Ha%tag_eqb_eq. unfold is_match_type, is_union_type, tag_is in *. rewrite Ha, Hd.
  destruct (tag_eqb (t_tag d) OBJECT); reflexivity.
Qed.

(* checkArgType (repaired code) without its order of tests: against a plain declaration a plain argument is its own
   only variant, and a union argument never matches as a whole *)
Lemma check_arg_type_variants d a :
  check_arg_type fixed_args d a =
  is_block_type a || is_any_type a || is_unknown_type a || is_any_type d ||
  (if is_union_type d then accepted_by_union d a else existsb (admits d) (variants_of a)).
Proof.
  unfold check_arg_type. cbn [fix_union_check fixed_args].
  destruct (is_block_type a); [reflexivity|]. cbn [orb].
  destruct (is_any_type a) eqn:Ea; [rewrite orb_true_r; reflexivity|].
  destruct (is_unknown_type a); [rewrite orb_true_r; reflexivity|].
  destruct (is_any_type d) eqn:Ed; [reflexivity|]. cbn [orb].
  destruct (is_union_type d) eqn:Eud; [reflexivity|]. cbn [negb andb].
  destruct (is_union_type a) eqn:Eua.
  - rewrite (variants_of_union a Eua), (union_no_match d a Eud Eua). reflexivity.
  - rewrite (variants_of_plain a Eua). unfold admits. cbn [existsb]. rewrite Ed, Ea.
    destruct (is_match_type d a); reflexivity.
Qed.

Lemma any_accepts d a : is_any_type d = true -> check_arg_type fixed_args d a = true.
Proof. intros H. rewrite check_arg_type_variants, H, orb_true_r. reflexivity. Qed.

(* The test lies between two readings of "the declaration takes the argument" in the code's own [admits]: it passes
   when every variant of the argument is admitted by some variant of the declaration, and fails when none is by any. *)
Lemma admitted_accepted d a : variants_of a <> [] ->
  (forall x, In x (variants_of a) -> exists v, In v (variants_of d) /\ admits v x = true) ->
  check_arg_type fixed_args d a = true.
Proof.
  intros Hne H. rewrite check_arg_type_variants. apply orb_true_iff. right.
  destruct (is_union_type d) eqn:Eud.
  - rewrite (variants_of_union d Eud) in H. unfold accepted_by_union. apply orb_true_iff. right.
    apply forallb_forall. intros x Hx. apply existsb_exists, H, Hx.
  - rewrite (variants_of_plain d Eud) in H. destruct (variants_of a) as [|x r]; [contradiction|].
    destruct (H x (or_introl eq_refl)) as (v & [<-|[]] & Hv). cbn [existsb]. rewrite Hv. reflexivity.
Qed.

Lemma known_top a : known a = true -> is_block_type a = false /\ is_any_type a = false /\ is_unknown_type a = false.
Proof.
  unfold known. intros [Hb%negb_true_iff Hv]%andb_true_iff. split; [exact Hb|].
  destruct (is_union_type a) eqn:Eu; [apply union_excludes, Eu|].
  rewrite (variants_of_plain a Eu) in Hv. cbn [forallb] in Hv. rewrite andb_true_r in Hv.
  apply orb_false_iff, negb_true_iff, Hv.
Qed.

Lemma known_in a : known a = true -> forall x, In x (variants_of a) -> is_any_type x = false.
Proof.
  unfold known. intros [_ Hv]%andb_true_iff x Hx. rewrite forallb_forall in Hv.
  apply Hv, negb_true_iff, orb_false_iff in Hx. apply Hx.
Qed.

Lemma rejected_refused d a : known a = true -> variants_of a <> [] ->
  (forall x v, In x (variants_of a) -> In v (variants_of d) -> admits v x = false) ->
  check_arg_type fixed_args d a = false.
Proof.
  intros Hk Hne Hrej. rewrite check_arg_type_variants. unfold accepted_by_union.
  destruct (known_top a Hk) as (-> & -> & ->).
  pose proof (known_in a Hk) as Hka.
  destruct (variants_of a) as [|x0 r0]; [contradiction|].
  assert (H0 : forall v, In v (variants_of d) -> admits v x0 = false) by (intros v; apply Hrej; left; reflexivity).
  destruct (is_union_type d) eqn:Eud.
  - rewrite (proj1 (union_excludes d Eud)). rewrite (variants_of_union d Eud) in *. cbn [orb forallb].
    apply orb_false_iff. split; [|apply andb_false_iff; left]; apply existsb_false; [|exact H0].
    intros v [Hv|Hv]%in_app_or; [|exact (Hka v Hv)].
    specialize (H0 v Hv). unfold admits in H0. destruct (is_any_type v); [discriminate | reflexivity].
  - rewrite (variants_of_plain d Eud) in *. apply orb_false_iff. split.
    + specialize (H0 d (or_introl eq_refl)). unfold admits in H0. destruct (is_any_type d); [discriminate | reflexivity].
    + apply existsb_false. intros x Hx. exact (Hrej x d Hx (or_introl eq_refl)).
Qed.

(* Model/CallSpec.v reads a declaration by kinds; for a flat declaration that is [admits] *)
Lemma flat_in d : flat d = true -> forall v, In v (variants_of d) -> is_union_type v = false.
Proof. unfold flat. intros H v Hv. rewrite forallb_forall in H. apply negb_true_iff, H, Hv. Qed.

Lemma admits_kind v x : is_union_type v = false ->
  admits v x = is_any_type x || (is_any_type v || kind_eqb (kind_of v) (kind_of x)).
Proof.
  intros Hv. unfold admits. rewrite (match_kind v x Hv). destruct (is_any_type v), (is_any_type x); reflexivity.
Qed.

(* C08: if the declaration admits every possible class of the argument, the check passes *)
Theorem check_arg_type_complete d a :
  flat d = true -> variants_of a <> [] ->
  forallb (decl_admits d) (possible a) = true ->
  check_arg_type fixed_args d a = true.
Proof.
  intros Hfd Hne Hall. apply admitted_accepted; [exact Hne|]. intros x Hx.
  rewrite forallb_forall in Hall. apply (in_map kind_of), Hall, existsb_exists in Hx as (v & Hv & Hk).
  exists v. split; [exact Hv|].
  rewrite (admits_kind v x (flat_in d Hfd v Hv)), Hk. apply orb_true_r.
Qed.

(* C07: if the declaration rejects every possible class of a fully known argument, the check fails *)
Theorem check_arg_type_sound d a :
  flat d = true -> known a = true -> variants_of a <> [] ->
  forallb (fun k => negb (decl_admits d k)) (possible a) = true ->
  check_arg_type fixed_args d a = false.
Proof.
  intros Hfd Hk Hne Hall. apply rejected_refused; [exact Hk | exact Hne|]. intros x v Hx Hv.
  rewrite forallb_forall in Hall. pose proof (Hall _ (in_map kind_of _ _ Hx)) as Hrej%negb_true_iff.
  rewrite (admits_kind v x (flat_in d Hfd v Hv)), (known_in a Hk x Hx). exact (proj1 (existsb_false _ _) Hrej v Hv).
Qed.

(* the declarative reading: parameter i takes argument i; parameters beyond the arguments must have a
   default; more arguments than parameters is an error (unless the method returns untyped) *)
Fixpoint pos_walk (cr : bool) (ptys args : list ty) : cres :=
  match ptys with
  | [] => COk
  | p :: ps =>
      match args with
      | a :: as' => if check_arg_type fixed_args p a then pos_walk cr ps as' else CErr ETypeMismatch
      | [] => if has_default p then pos_walk cr ps [] else if cr then CErr ETooFew else COk
      end
  end.

Definition pos_spec (cr ra : bool) (ptys args : list ty) : cres :=
  match pos_walk cr ptys args with
  | COk => if ra then COk else if cr && Nat.ltb (List.length ptys) (List.length args) then CErr ETooMany else COk
  | e => e
  end.

Definition plain_name (s : string) : bool := negb (is_key_suffix s) && negb (is_star s) && negb (is_dstar s) && negb (is_named_darg s).
Definition plain_arg (a : ty) : bool := negb (is_keyvalue_type a) && negb (tag_is UNKNOWN a).
Definition declared (t : tbl) (n : string) : bool :=
  match tget t n with Some dt => is_builtin dt && negb (tag_is UNKNOWN dt) | None => false end.
Definition param_ty (t : tbl) (n : string) : ty := match tget t n with Some dt => dt | None => zero_ty end.

Lemma zip_forall_nil_r f ps : zip_forall f ps [] = true.
Proof. destruct ps; reflexivity. Qed.

Lemma zip_forall_impl (f g : ty -> ty -> bool) : (forall p a, f p a = true -> g p a = true) ->
  forall ps args, zip_forall f ps args = true -> zip_forall g ps args = true.
Proof.
  intros H. induction ps as [|p ps IH]; intros [|a r]; cbn [zip_forall]; try reflexivity.
  intros [Hpa Hr]%andb_true_iff. rewrite (H p a Hpa). exact (IH r Hr).
Qed.

Lemma zip_exists_forall (f g : ty -> ty -> bool) : (forall p a, f p a = true -> g p a = false) ->
  forall ps args, zip_exists f ps args = true -> zip_forall g ps args = false.
Proof.
  intros H. induction ps as [|p ps IH]; intros [|a r]; cbn [zip_exists zip_forall]; try discriminate.
  intros [Hpa|Hr]%orb_true_iff; [rewrite (H p a Hpa) | rewrite (IH r Hr), andb_false_r]; reflexivity.
Qed.

Lemma zip_forall_all (f : ty -> ty -> bool) ps : (forall p, In p ps -> forall a, f p a = true) ->
  forall args, zip_forall f ps args = true.
Proof.
  induction ps as [|p ps IH]; intros H [|a r]; cbn [zip_forall]; try reflexivity.
  rewrite (H p (or_introl eq_refl)). apply IH. intros q Hq. apply H. right. exact Hq.
Qed.

Lemma zip_forall_nth (f : ty -> ty -> bool) ps : forall args,
  (forall i, i < List.length args -> f (nth i ps zero_ty) (nth i args zero_ty) = true) -> zip_forall f ps args = true.
Proof.
  induction ps as [|p ps IH]; intros [|a r] H; try reflexivity.
  apply andb_true_iff. split; [apply (H 0); cbn; lia | apply IH]. intros i Hi. apply (H (S i)). cbn. lia.
Qed.

Lemma pos_walk_ok cr ptys : forall args,
  pos_walk cr ptys args = COk <->
  zip_forall (check_arg_type fixed_args) ptys args = true /\
  (cr = true -> forallb has_default (skipn (List.length args) ptys) = true).
Proof.
  induction ptys as [|p ps IH]; intros [|a r]; cbn [pos_walk zip_forall List.length skipn forallb]; [easy | easy | |].
  - destruct (has_default p); [rewrite IH, zip_forall_nil_r; reflexivity|].
    destruct cr; [split; [discriminate | intros [_ H]; discriminate (H eq_refl)] | easy].
  - destruct (check_arg_type fixed_args p a); [apply IH | split; [discriminate | intros [H _]; discriminate H]].
Qed.

Lemma pos_walk_supported cr ptys : forall args, pos_walk cr ptys args <> CUnsupported.
Proof.
  induction ptys as [|p ps IH]; intros [|a r]; cbn [pos_walk]; [discriminate | discriminate | |].
  - destruct (has_default p), cr; (apply IH || discriminate).
  - destruct (check_arg_type fixed_args p a); [apply IH | discriminate].
Qed.

Lemma pos_walk_any_round cr ptys args : pos_walk true ptys args = COk -> pos_walk cr ptys args = COk.
Proof. intros [Hz Hd]%pos_walk_ok. apply pos_walk_ok. auto. Qed.

Lemma pos_walk_app p1 p2 : forall args,
  pos_walk true (p1 ++ p2) args =
  match pos_walk true p1 args with COk => pos_walk true p2 (skipn (List.length p1) args) | e => e end.
Proof.
  induction p1 as [|p ps IH]; intros [|a r]; cbn [app pos_walk List.length skipn]; try reflexivity.
  - destruct (has_default p); [rewrite IH, skipn_nil|]; reflexivity.
  - destruct (check_arg_type fixed_args p a); [apply IH | reflexivity].
Qed.

Lemma pos_walk_required R : forallb (fun p => is_any_type p && negb (has_default p)) R = true -> forall args,
  pos_walk true R args = if Nat.leb (List.length R) (List.length args) then COk else CErr ETooFew.
Proof.
  induction R as [|p R IH]; [reflexivity|].
  intros [[Hany Hd%negb_true_iff]%andb_true_iff HR]%andb_true_iff [|a r]; cbn [pos_walk List.length Nat.leb].
  - rewrite Hd. reflexivity.
  - rewrite (any_accepts p a Hany). apply IH, HR.
Qed.

Lemma pos_walk_defaults cr O args : forallb has_default O = true ->
  zip_forall (check_arg_type fixed_args) O args = true -> pos_walk cr O args = COk.
Proof. intros HO Hz. apply pos_walk_ok. split; [exact Hz|]. intros _. apply forallb_skipn, HO. Qed.

Lemma prioritize_args_plain args : forallb plain_arg args = true -> prioritize_args args = args.
Proof.
  intros Ha. rewrite <- (app_nil_r args), prioritize_args_split; [reflexivity | | reflexivity].
  revert Ha. apply forallb_impl. intros a [H _]%andb_true_iff. exact H.
Qed.

Lemma prioritize_dargs_plain names :
  forallb (fun n => negb (is_named_darg n)) names = true -> prioritize_dargs names = names.
Proof. intros H. unfold prioritize_dargs. rewrite filter_all, filter_none by exact H. apply app_nil_r. Qed.

Lemma plain_names_unnamed names :
  forallb plain_name names = true -> forallb (fun n => negb (is_named_darg n)) names = true.
Proof. apply forallb_impl. intros d [_ H]%andb_true_iff. exact H. Qed.

Lemma plain_name_inv d : plain_name d = true -> is_key_suffix d = false /\ is_star d = false /\ is_dstar d = false.
Proof. unfold plain_name. destruct (is_key_suffix d), (is_star d), (is_dstar d); try discriminate. auto. Qed.

Definition at_idx (s : wstate) (i : nat) : wstate :=
  {| w_args := w_args s; w_idx := i; w_aster := w_aster s; w_tbl := w_tbl s |}.

(* walk_step on a plain declared parameter, plain arguments: the step of pos_walk on the arguments not yet taken *)
Lemma walk_step_plain cr d rest s :
  plain_name d = true -> declared (w_tbl s) d = true -> forallb plain_arg (w_args s) = true ->
  walk_step fixed_args cr d rest s =
    match skipn (w_idx s) (w_args s) with
    | a :: _ => if check_arg_type fixed_args (param_ty (w_tbl s) d) a then SNext (at_idx s (S (w_idx s)))
                else SErr ETypeMismatch
    | [] => if has_default (param_ty (w_tbl s) d) then SNext (at_idx s (S (w_idx s)))
            else if cr then SErr ETooFew else SBreak (at_idx s (w_idx s))
    end.
Proof.
  intros Hn Hd Ha. unfold declared, param_ty in *. destruct (tget (w_tbl s) d) as [dt|] eqn:Et; [|discriminate].
  apply andb_true_iff in Hd as [Hbi Hunk%negb_true_iff].
  destruct (plain_name_inv d Hn) as (H1 & H2 & H3). rewrite forallb_forall in Ha.
  (* no argument is a keyword argument, so the current one is not: most of walk_step falls away *)
  assert (Hkv : Nat.ltb (w_idx s) (List.length (w_args s)) && is_keyvalue_type (nth (w_idx s) (w_args s) zero_ty) = false).
  { destruct (Nat.ltb_spec (w_idx s) (List.length (w_args s))) as [Hi|]; [|reflexivity].
    apply (nth_In _ zero_ty), Ha, andb_true_iff in Hi as [Hi%negb_true_iff _]. exact Hi. }
  unfold walk_step. rewrite H1, H2, H3, Et, Hkv, Hunk, Hbi. cbn [opt_has_default andb negb].
  rewrite !andb_false_r. cbn [andb].
  destruct (Nat.ltb_spec (w_idx s) (List.length (w_args s))) as [Hi|Hi]; cbn [negb].
  - rewrite (skipn_nth_cons zero_ty _ _ Hi).
    apply (nth_In _ zero_ty), Ha, andb_true_iff in Hi as [_ Hu%negb_true_iff]. rewrite Hu. reflexivity.
  - rewrite (skipn_all2 _ Hi). reflexivity.
Qed.

(* A run of plain declared parameters: when each is served, by an argument that fits or by its default, the walk
   passes over them all; otherwise it ends there with the verdict of pos_walk, having moved nothing but the index. *)
Lemma walk_plain cr N : forall rest s,
  forallb plain_name N = true -> forallb (declared (w_tbl s)) N = true -> forallb plain_arg (w_args s) = true ->
  match pos_walk true (map (param_ty (w_tbl s)) N) (skipn (w_idx s) (w_args s)) with
  | COk => walk fixed_args cr (N ++ rest) s = walk fixed_args cr rest (at_idx s (w_idx s + List.length N))
  | _ => exists j, walk fixed_args cr (N ++ rest) s =
                   (pos_walk cr (map (param_ty (w_tbl s)) N) (skipn (w_idx s) (w_args s)), at_idx s j)
  end.
Proof.
  induction N as [|d N IH]; intros rest s Hn Hd Ha; cbn [map pos_walk app walk List.length].
  - rewrite Nat.add_0_r. destruct s; reflexivity.
  - apply andb_true_iff in Hn as [Hn1 Hn], Hd as [Hd1 Hd].
    rewrite (walk_step_plain cr d _ s Hn1 Hd1 Ha), Nat.add_succ_r.
    specialize (IH rest (at_idx s (S (w_idx s))) Hn Hd Ha). cbn [at_idx w_idx w_args w_tbl] in IH. rewrite skipn_tl in IH.
    assert (Hs : s = at_idx s (w_idx s)) by (destruct s; reflexivity).
    destruct (skipn (w_idx s) (w_args s)) as [|a r].
    + destruct (has_default (param_ty (w_tbl s) d)); [exact IH|]. exists (w_idx s). destruct cr; congruence.
    + destruct (check_arg_type fixed_args (param_ty (w_tbl s) d) a); [exact IH|]. exists (w_idx s). congruence.
Qed.

Corollary walk_positional cr N s :
  forallb plain_name N = true -> forallb (declared (w_tbl s)) N = true -> forallb plain_arg (w_args s) = true ->
  exists s', walk fixed_args cr N s = (pos_walk cr (map (param_ty (w_tbl s)) N) (skipn (w_idx s) (w_args s)), s')
             /\ w_aster s' = w_aster s /\ w_tbl s' = w_tbl s.
Proof.
  intros Hn Hd Ha. pose proof (walk_plain cr N [] s Hn Hd Ha) as H. rewrite app_nil_r in H.
  destruct (pos_walk true _ _) eqn:E; [rewrite (pos_walk_any_round cr _ _ E), H | destruct H as [j ->] ..];
    eexists; repeat split.
Qed.

(* checkAndPropagateArgs on a positional call of a configured method is exactly the declarative rule *)
Theorem check_args_positional cr ra names t args :
  forallb plain_name names = true -> forallb plain_arg args = true -> forallb (declared t) names = true ->
  check_args fixed_args cr ra names t args = (pos_spec cr ra (map (param_ty t) names) args, t).
Proof.
  intros Hn Ha Hd. unfold check_args, pos_spec.
  rewrite (prioritize_args_plain args Ha), (prioritize_dargs_plain names (plain_names_unnamed names Hn)).
  destruct (walk_positional cr names {| w_args := args; w_idx := 0; w_aster := false; w_tbl := t |} Hn Hd Ha)
    as (s' & -> & -> & ->). cbn [w_args w_idx w_tbl w_aster skipn]. rewrite map_length.
  destruct (pos_walk cr (map (param_ty t) names) args); try reflexivity.
  destruct ra, (cr && Nat.ltb (List.length names) (List.length args)); reflexivity.
Qed.

(* In the check round a positional call is accepted exactly when the count rule holds and every argument passes the
   admission test; it is accepted then in every round. *)
Theorem pos_spec_accepts cr ra ptys args :
  arity_ok ptys (List.length args) = true -> zip_forall (check_arg_type fixed_args) ptys args = true ->
  pos_spec cr ra ptys args = COk.
Proof.
  unfold arity_ok, pos_spec. intros [Hl%Nat.leb_le Hd]%andb_true_iff Hz.
  rewrite (proj2 (pos_walk_ok cr ptys args)) by auto.
  rewrite (proj2 (Nat.ltb_ge _ _) Hl), andb_false_r. destruct ra; reflexivity.
Qed.

Theorem pos_spec_refuses ptys args :
  arity_ok ptys (List.length args) && zip_forall (check_arg_type fixed_args) ptys args = false ->
  exists k, pos_spec true false ptys args = CErr k.
Proof.
  intros H. unfold pos_spec.
  destruct (pos_walk true ptys args) eqn:E; [|eexists; reflexivity | destruct (pos_walk_supported _ _ _ E)].
  apply pos_walk_ok in E as [Hz Hd]. unfold arity_ok in H. rewrite Hz, (Hd eq_refl), !andb_true_r in H.
  apply Nat.leb_gt, Nat.ltb_lt in H. rewrite H. eexists; reflexivity.
Qed.

Lemma variants_nonempty a : negb (match variants_of a with [] => true | _ => false end) = true -> variants_of a <> [].
Proof. destruct (variants_of a); cbn; congruence. Qed.

Theorem certainly_fits_accepted cr ra ptys args :
  certainly_fits ptys args = true -> pos_spec cr ra ptys args = COk.
Proof.
  unfold certainly_fits. intros [Har Hz]%andb_true_iff. apply pos_spec_accepts; [exact Har|].
  revert Hz. apply zip_forall_impl. intros p a. unfold arg_all_admitted.
  intros [[Hf Hne%variants_nonempty]%andb_true_iff Hall]%andb_true_iff. apply check_arg_type_complete; assumption.
Qed.

Theorem certainly_fails_reported ptys args :
  certainly_fails ptys args = true -> exists k, pos_spec true false ptys args = CErr k.
Proof.
  unfold certainly_fails. intros H. apply pos_spec_refuses.
  apply orb_true_iff in H as [->%negb_true_iff | H]; [reflexivity|].
  apply (zip_exists_forall _ (check_arg_type fixed_args)) in H; [rewrite H; apply andb_false_r|].
  intros p a. unfold arg_all_rejected.
  intros [[[[Hfd _]%andb_true_iff Hk]%andb_true_iff Hne%variants_nonempty]%andb_true_iff Hall]%andb_true_iff.
  apply check_arg_type_sound; assumption.
Qed.

(* REQ(n)|OPT(m) takes n to n + m arguments *)
Theorem positional_arity R O args :
  forallb (fun p => is_any_type p && negb (has_default p)) R = true ->
  forallb (fun p => is_any_type p && has_default p) O = true ->
  (pos_spec true false (R ++ O) args = COk <-> List.length R <= List.length args <= List.length R + List.length O).
Proof.
  intros HR HO. unfold pos_spec. rewrite pos_walk_app, (pos_walk_required R HR), app_length.
  destruct (Nat.leb_spec (List.length R) (List.length args)) as [Hle|Hlt]; [|split; [discriminate | lia]].
  rewrite pos_walk_defaults.
  - destruct (Nat.ltb_spec (List.length R + List.length O) (List.length args));
      split; try discriminate; try reflexivity; lia.
  - revert HO. apply forallb_impl. intros p [_ H]%andb_true_iff. exact H.
  - apply zip_forall_all. intros p Hp a. rewrite forallb_forall in HO.
    apply HO, andb_true_iff in Hp as [Hp _]. apply any_accepts, Hp.
Qed.
