(* What one call site sees of the types it handles (Model/Propagate.v): the argument types it is proved for, what the
   setters keep, T.IsMatchType between scalar types.  The round itself is in PropagateCoverP.v *)
From RT Require Import Model.Propagate Model.Infer Proofs.InferP.

Definition kind (t : ty) : tag * string := (t_tag t, t_cls t).
Definition arg_ok (a : ty) : bool := scalar a && negb (tag_is UNKNOWN a) && negb (is_builtin a) && negb (has_default a).

Lemma arg_ok_parts a : arg_ok a = true ->
  scalar a = true /\ tag_is UNKNOWN a = false /\ is_builtin a = false /\ has_default a = false.
Proof.
  unfold arg_ok. intros H. apply andb_true_iff in H as [H H4]. apply andb_true_iff in H as [H H3]. apply andb_true_iff in H as [H1 H2].
  apply negb_true_iff in H2, H3, H4. auto.
Qed.

(* setters keep what they do not set *)
Lemma set_inf_tag t b : t_tag (set_inf t b) = t_tag t. Proof. destruct t; reflexivity. Qed.
Lemma set_inf_cls t b : t_cls (set_inf t b) = t_cls t. Proof. destruct t; reflexivity. Qed.
Lemma set_inf_vars t b : t_vars (set_inf t b) = t_vars t. Proof. destruct t; reflexivity. Qed.
Lemma set_inf_inf t b : is_inferred (set_inf t b) = b. Proof. destruct t; reflexivity. Qed.
Lemma set_inf_bi t b : is_builtin (set_inf t b) = is_builtin t. Proof. destruct t; reflexivity. Qed.
Lemma set_inf_hd t b : has_default (set_inf t b) = has_default t. Proof. destruct t; reflexivity. Qed.
Lemma set_inf_idem t b c : set_inf (set_inf t b) c = set_inf t c. Proof. destruct t; reflexivity. Qed.
Lemma set_hd_tag t b : t_tag (set_hd t b) = t_tag t. Proof. destruct t; reflexivity. Qed.
Lemma set_hd_vars t b : t_vars (set_hd t b) = t_vars t. Proof. destruct t; reflexivity. Qed.
Lemma set_hd_hd t b : has_default (set_hd t b) = b. Proof. destruct t; reflexivity. Qed.
Lemma set_hd_bi t b : is_builtin (set_hd t b) = is_builtin t. Proof. destruct t; reflexivity. Qed.
Lemma set_vars_tag t l : t_tag (set_vars t l) = t_tag t. Proof. destruct t; reflexivity. Qed.
Lemma set_vars_fl t l : t_fl (set_vars t l) = t_fl t. Proof. destruct t; reflexivity. Qed.

Lemma scalar_set_inf t b : scalar (set_inf t b) = scalar t.
Proof. unfold scalar, tag_is. rewrite set_inf_tag, set_inf_vars. reflexivity. Qed.
Lemma kind_set_inf t b : kind (set_inf t b) = kind t.
Proof. unfold kind. rewrite set_inf_tag, set_inf_cls. reflexivity. Qed.
Lemma arg_ok_set_inf a b : arg_ok (set_inf a b) = arg_ok a.
Proof. unfold arg_ok, tag_is. rewrite scalar_set_inf, set_inf_tag, set_inf_bi, set_inf_hd. reflexivity. Qed.

Lemma variants_union t : is_union_type t = true -> variants_or_self t = t_vars t.
Proof. unfold variants_or_self. intros ->. reflexivity. Qed.
Lemma variants_scalar t : scalar t = true -> variants_or_self t = [t].
Proof. unfold variants_or_self. intros H. rewrite (scalar_not_union t H). reflexivity. Qed.

(* same_kind looks at the kind of its first argument only *)
Lemma existsb_kinds (l l' : list ty) v : map kind l = map kind l' ->
  existsb (fun s => same_kind s v) l = existsb (fun s => same_kind s v) l'.
Proof.
  revert l'. induction l as [|x l IH]; intros [|x' l'] H; try discriminate H; [reflexivity|].
  injection H as Ht Hc Hl. cbn [existsb]. rewrite (IH l' Hl). unfold same_kind. rewrite Ht, Hc. reflexivity.
Qed.

Lemma existsb_ext {A} (f g : A -> bool) l : (forall x, f x = g x) -> existsb f l = existsb g l.
Proof. intros H. induction l as [|x l IH]; cbn [existsb]; [reflexivity | rewrite H, IH; reflexivity]. Qed.

(* T.IsMatchType from a scalar: equal classes between objects, equal tags otherwise *)
Lemma is_match_scalar v a : scalar v = true ->
  is_match_type v a = if tag_is OBJECT v && tag_is OBJECT a then String.eqb (t_cls v) (t_cls a) else tag_eqb (t_tag v) (t_tag a).
Proof. intros Hv. unfold is_match_type. rewrite (scalar_not_union v Hv). reflexivity. Qed.

Lemma is_match_type_kind t t' a : scalar t = true -> scalar t' = true -> kind t = kind t' -> is_match_type t a = is_match_type t' a.
Proof. intros Ht Ht' [= Hg Hc]. rewrite !is_match_scalar by assumption. unfold tag_is. rewrite Hg, Hc. reflexivity. Qed.

Lemma same_kind_match v a : scalar v = true -> same_kind v a = true -> is_match_type v a = true.
Proof.
  intros Hv H. rewrite (is_match_scalar v a Hv). apply andb_true_iff in H as [H1 H2].
  destruct (tag_is OBJECT v && tag_is OBJECT a); assumption.
Qed.

Lemma same_kind_admits vs a : forallb scalar vs = true ->
  existsb (fun v => same_kind v a) vs = true -> existsb (fun v => is_match_type v a) vs = true.
Proof.
  intros Hs H. apply existsb_exists in H as (v & Hv & Hk). apply existsb_exists. exists v. split; [exact Hv|].
  apply same_kind_match; [exact (proj1 (forallb_forall _ _) Hs v Hv) | exact Hk].
Qed.

Lemma match_refl a : scalar a = true -> is_match_type a a = true.
Proof. intros H. apply same_kind_match; [exact H | apply same_kind_refl]. Qed.

Lemma is_match_set_inf_l x b a : is_match_type (set_inf x b) a = is_match_type x a.
Proof. unfold is_match_type, is_union_type, tag_is, variant_tags. rewrite set_inf_tag, set_inf_cls, set_inf_vars. reflexivity. Qed.
Lemma is_match_set_inf_r v a b : is_match_type v (set_inf a b) = is_match_type v a.
Proof. unfold is_match_type, is_union_type, tag_is, variant_tags. rewrite set_inf_tag, set_inf_cls, set_inf_vars. reflexivity. Qed.

Section Round.
  Variable r : string.

  Lemma not_new_round dr X : dr = r -> negb (String.eqb dr "") && negb (String.eqb dr r) && X = false.
  Proof. intros ->. rewrite String.eqb_refl. rewrite Bool.andb_false_r. reflexivity. Qed.
End Round.
