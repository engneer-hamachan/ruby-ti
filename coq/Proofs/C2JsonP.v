(* C26: the emitted declaration has the shape of the C binding (the counts it then accepts through
   checkAndPropagateArgs are ArgsP.positional_arity and RestArityP). *)
From RT Require Import Model.C2Json.

Lemma decl_shape_rest seen t l acc :
  decl_shape seen ((t, "*args") :: l) acc =
  decl_shape true l {| sh_req := sh_req acc; sh_opt := sh_opt acc; sh_rest := true; sh_post := sh_post acc |}.
Proof. reflexivity. Qed.

Lemma decl_shape_block seen t l acc : is_block_decl t = true -> decl_shape seen ((t, "") :: l) acc = decl_shape seen l acc.
Proof. intros H. cbn. rewrite H. reflexivity. Qed.

Lemma decl_shape_param seen t l acc : is_block_decl t = false ->
  decl_shape seen ((t, "") :: l) acc =
  decl_shape seen l
    (if is_opt_type t then {| sh_req := sh_req acc; sh_opt := S (sh_opt acc); sh_rest := sh_rest acc; sh_post := sh_post acc |}
     else if seen then {| sh_req := sh_req acc; sh_opt := sh_opt acc; sh_rest := sh_rest acc; sh_post := S (sh_post acc) |}
     else {| sh_req := S (sh_req acc); sh_opt := sh_opt acc; sh_rest := sh_rest acc; sh_post := sh_post acc |}).
Proof. intros H. cbn. rewrite H. destruct (is_opt_type t), seen; reflexivity. Qed.

(* n equal parameters count n times where one counts once *)
Lemma decl_shape_repeat seen t n : is_block_decl t = false -> forall l acc,
  decl_shape seen (repeat (t, "") n ++ l) acc =
  decl_shape seen l
    (if is_opt_type t then {| sh_req := sh_req acc; sh_opt := n + sh_opt acc; sh_rest := sh_rest acc; sh_post := sh_post acc |}
     else if seen then {| sh_req := sh_req acc; sh_opt := sh_opt acc; sh_rest := sh_rest acc; sh_post := n + sh_post acc |}
     else {| sh_req := n + sh_req acc; sh_opt := sh_opt acc; sh_rest := sh_rest acc; sh_post := sh_post acc |}).
Proof.
  intros Hb. induction n as [|n IH]; intros l acc; cbn [repeat app].
  - destruct acc, (is_opt_type t), seen; reflexivity.
  - rewrite (decl_shape_param _ _ _ _ Hb), IH. destruct (is_opt_type t), seen; cbn; rewrite Nat.add_succ_r; reflexivity.
Qed.

Lemma fmt_type_not_special c t : fmt_type c = Some t ->
  Ascii.eqb c "|" = false /\ Ascii.eqb c "*" = false /\ Ascii.eqb c "&" = false.
Proof. intros H. repeat split; apply Ascii.eqb_neq; intros ->; discriminate H. Qed.

Lemma fmt_type_plain c t : fmt_type c = Some t ->
  is_opt_type t = false /\ is_block_decl t = false /\ is_block_decl (String.append "?" t) = false.
Proof.
  unfold fmt_type. repeat (case (existsb _ _); [intros [= <-]; repeat split|]). discriminate.
Qed.

(* a format in which `*` is not followed by further argument letters (mruby's `*` takes all that is left) *)
Fixpoint rest_last (seen : bool) (s : string) : bool :=
  match s with
  | EmptyString => true
  | String c r => match fmt_type c with
                  | Some _ => negb seen && rest_last seen r
                  | None => rest_last (seen || Ascii.eqb c "*") r
                  end
  end.

Lemma infer_fmt_shape s : forall opt seen acc, rest_last seen s = true ->
  decl_shape seen (infer_fmt opt s) acc = fmt_shape opt s acc.
Proof.
  induction s as [|c r IH]; intros opt seen acc Hr; cbn [infer_fmt fmt_shape rest_last] in *; [reflexivity|].
  destruct (fmt_type c) as [t|] eqn:Et.
  - apply andb_true_iff in Hr as [->%negb_true_iff Hr]. destruct (fmt_type_plain c t Et) as (Ho & Hb & Hb').
    destruct opt; rewrite decl_shape_param by assumption; [cbn [is_opt_type String.append]| rewrite Ho];
      apply IH, Hr.
  - destruct (Ascii.eqb_spec c "*") as [->|_].
    + rewrite orb_true_r in Hr. cbn [Ascii.eqb Bool.eqb]. apply IH, Hr.
    + rewrite orb_false_r in Hr. destruct (Ascii.eqb c "|"); [apply IH, Hr|].
      destruct (Ascii.eqb c "&"); apply IH, Hr.
Qed.

(* POST makes sense after REST only (MRB_ARGS_POST: "required arguments after the rest") *)
Definition aspec_ok (a : aspec) : bool := a_rest a || Nat.eqb (a_post a) 0.

Lemma infer_counts_shape a : aspec_ok a = true ->
  decl_shape false (infer_counts a) empty_shape =
  {| sh_req := a_req a; sh_opt := a_opt a; sh_rest := a_rest a; sh_post := a_post a |}.
Proof.
  intros Hok. unfold infer_counts. rewrite !decl_shape_repeat by reflexivity.
  cbn [is_opt_type Ascii.eqb Bool.eqb sh_req sh_opt sh_rest sh_post empty_shape]. rewrite !Nat.add_0_r.
  unfold aspec_ok in Hok. destruct (a_rest a).
  - cbn [app]. rewrite decl_shape_rest, decl_shape_repeat by reflexivity. cbn. rewrite Nat.add_0_r.
    destruct (a_block a); reflexivity.
  - apply Nat.eqb_eq in Hok. rewrite Hok. destruct (a_block a); reflexivity.
Qed.
