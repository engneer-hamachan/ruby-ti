(* C24: one caller entry per call site, totals equal the number of call sites, callees are the calls of the body *)
From RT Require Import Model.CallGraph.

Lemma filter_of_map {A B} (f : B -> bool) (g : A -> B) l : filter f (map g l) = map g (filter (fun a => f (g a)) l).
Proof. induction l as [|a l IH]; cbn [map filter]; [reflexivity|]. destruct (f (g a)); rewrite IH; reflexivity. Qed.

(* both tables get one entry per real site, in order *)
Lemma fold_record ss : forall t,
  fold_left record ss t =
  {| call_points := call_points t ++ map (fun s => (s_callee s, (s_row s, s_caller s))) (real_sites ss);
     callee_points := callee_points t ++ map (fun s => (s_caller s, (s_row s, s_callee s))) (real_sites ss) |}.
Proof.
  induction ss as [|s r IH]; intros t; cbn [fold_left real_sites filter map]; [destruct t; rewrite !app_nil_r; reflexivity|].
  rewrite IH. unfold record. destruct (s_check_round s && negb (s_condition_scan s)); [|reflexivity].
  cbn [call_points callee_points map]. rewrite <- !app_assoc. reflexivity.
Qed.

Theorem callers_exact ss k :
  callers_of (record_all ss) k = map (fun s => (s_row s, s_caller s)) (filter (fun s => mkey_eqb (s_callee s) k) (real_sites ss)).
Proof. unfold callers_of, record_all. rewrite fold_record. cbn [call_points app]. rewrite filter_of_map, map_map. reflexivity. Qed.

Theorem callees_exact ss k :
  callees_of (record_all ss) k = map (fun s => (s_row s, s_callee s)) (filter (fun s => mkey_eqb (s_caller s) k) (real_sites ss)).
Proof. unfold callees_of, record_all. rewrite fold_record. cbn [callee_points app]. rewrite filter_of_map, map_map. reflexivity. Qed.
