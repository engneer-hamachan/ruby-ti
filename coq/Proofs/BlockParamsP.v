(* Resolution of declared block parameters (Model/BlockParams.v) *)
From RT Require Import Model.BlockParams Model.Infer Proofs.InferP.

(* Unify: the union of the receiver's element types; Flatten with at most one block variable: the same *)
Theorem resolve_unify count args recv p : t_tag p = UNIFY -> resolve_params count args recv [p] = [UnifyVariants recv].
Proof. intros H. unfold resolve_params, resolve_param. cbn [fold_left]. rewrite H. reflexivity. Qed.

Theorem resolve_flatten_one count args recv p : t_tag p = FLATTEN -> count <= 1 ->
  resolve_params count args recv [p] = [UnifyVariants recv].
Proof.
  intros H Hc. unfold resolve_params, resolve_param. cbn [fold_left]. rewrite H.
  replace (Nat.leb count 1) with true by (symmetry; apply Nat.leb_le; exact Hc). reflexivity.
Qed.

Theorem resolve_self count args recv p : t_tag p = SELF -> resolve_params count args recv [p] = [recv].
Proof. intros H. unfold resolve_params, resolve_param. cbn [fold_left]. rewrite H. reflexivity. Qed.

Definition plain (x : ty) : bool := scalar x && negb (tag_is UNKNOWN x).

(* the stages of flatten_slots: the elements of a tuple go to the slots from i on; the filled slots are kept; each is
   padded with nil to the longest and unified *)
Definition fill (tmp : list (option ty)) (i : nat) (vs : list ty) : list (option ty) :=
  fst (fold_left (fun (s2 : list (option ty) * nat) av =>
                    (set_slot (fst s2) (snd s2) (fun o => AppendArrayVariant (or_array o) av), S (snd s2))) vs (tmp, i)).
Definition somes (tmp : list (option ty)) : list ty := flat_map (fun o => match o with Some v => [v] | None => [] end) tmp.
Definition fin (max_len : nat) (v : ty) : ty :=
  let v' := if is_array_type v && Nat.ltb (List.length (t_vars v)) max_len then AppendArrayVariant v MakeNil else v in
  if is_hash_type v' then v' else match t_vars v' with [] => v' | _ => UnifyVariants v' end.
Definition finish (present : list ty) : list ty :=
  map (fin (fold_left (fun m v => Nat.max m (List.length (t_vars v))) present 0)) present.

Lemma flatten_slots_tuple x xs :
  flatten_slots (MakeArray [MakeArray (x :: xs)]) = finish (somes (fill (repeat None (List.length (x :: xs))) 0 (x :: xs))).
Proof. reflexivity. Qed.

Lemma set_slot_at pre o post f : set_slot (pre ++ o :: post) (List.length pre) f = pre ++ Some (f o) :: post.
Proof. induction pre as [|p pre IH]; cbn [app List.length set_slot]; [reflexivity | rewrite IH; reflexivity]. Qed.

Lemma fill_empty xs : fill (repeat None (List.length xs)) 0 xs = map (fun x => Some (MakeArray [x])) xs.
Proof.
  enough (G : forall pre, fill (pre ++ repeat None (List.length xs)) (List.length pre) xs = pre ++ map (fun x => Some (MakeArray [x])) xs)
    by exact (G []).
  unfold fill. induction xs as [|x xs IH]; intros pre; cbn [List.length repeat fold_left map fst snd]; [reflexivity|].
  rewrite set_slot_at. specialize (IH (pre ++ [Some (MakeArray [x])])).
  rewrite app_length, Nat.add_1_r, <- !app_assoc in IH. exact IH.
Qed.

Lemma somes_map {A} (f : A -> ty) l : somes (map (fun x => Some (f x)) l) = map f l.
Proof. unfold somes. induction l as [|x l IH]; cbn [map flat_map app]; [reflexivity | rewrite IH; reflexivity]. Qed.

Lemma fin_single x : plain x = true -> fin 1 (MakeArray [x]) = x.
Proof.
  intros H. apply andb_true_iff in H as [H _].
  apply UnifyVariants_single; [reflexivity | reflexivity | exact (scalar_not_union x H)].
Qed.

Lemma finish_singletons xs : xs <> [] -> forallb plain xs = true -> finish (map (fun x => MakeArray [x]) xs) = xs.
Proof.
  intros Hne Hp. unfold finish.
  assert (M : fold_left (fun m v => Nat.max m (List.length (t_vars v))) (map (fun x => MakeArray [x]) xs) 0 = 1).
  { destruct xs as [|x xs]; [congruence|]. clear. induction xs as [|y xs IH]; [reflexivity | exact IH]. }
  rewrite M. clear M Hne. induction xs as [|x xs IH]; [reflexivity|].
  cbn [forallb map] in *. apply andb_true_iff in Hp as [Hx Hp]. rewrite (fin_single x Hx), (IH Hp). reflexivity.
Qed.

(* x, y = destructuring: a receiver that holds tuples [x1, ..., xk] gives block variable j the type xj *)
Theorem resolve_flatten_tuple count args xs p : t_tag p = FLATTEN -> 2 <= count -> xs <> [] -> forallb plain xs = true ->
  resolve_params count args (MakeArray [MakeArray xs]) [p] = xs.
Proof.
  intros H Hc Hne Hp. unfold resolve_params, resolve_param. cbn [fold_left]. rewrite H.
  replace (Nat.leb count 1) with false by (symmetry; apply Nat.leb_gt; lia).
  rewrite (UnifyVariants_single _ (MakeArray xs)) by reflexivity. change (t_vars (MakeArray xs)) with xs.
  destruct xs as [|x xs]; [congruence|].
  rewrite flatten_slots_tuple, fill_empty, somes_map. apply finish_singletons; assumption.
Qed.
