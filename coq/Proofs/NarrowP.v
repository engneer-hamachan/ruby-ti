(* C10: narrowing is exact in both branches and undone afterwards.  Everything is read off one invariant of the
   running state (Faithful): the restore closures and originalTs both hold, for every variable tested so far, the
   type it had before the conditional.  `get_backup` is what `conditional` and `elsif_step` share; the lemmas about
   it hold in every faithful state. *)
From RT Require Import Model.Narrow.

Lemma aget_aset_same {A} (m : amap A) k v : aget (aset m k v) k = Some v.
Proof.
  induction m as [|[k' v'] r IH]; cbn; [rewrite String.eqb_refl; reflexivity|].
  destruct (String.eqb k k') eqn:E; cbn; [rewrite String.eqb_refl; reflexivity | rewrite E; exact IH].
Qed.
Lemma aget_aset_other {A} (m : amap A) k k2 v : k2 <> k -> aget (aset m k v) k2 = aget m k2.
Proof.
  intros H. induction m as [|[k' v'] r IH]; cbn.
  - destruct (String.eqb_spec k2 k); [contradiction | reflexivity].
  - destruct (String.eqb_spec k k') as [->|N]; cbn.
    + destruct (String.eqb_spec k2 k'); [contradiction | reflexivity].
    + destruct (String.eqb k2 k'); [reflexivity | exact IH].
Qed.
Lemma ty_of_aset_same e x v : ty_of (aset e x v) x = v. Proof. unfold ty_of; rewrite aget_aset_same; reflexivity. Qed.
Lemma ty_of_aset_other e x y v : y <> x -> ty_of (aset e x v) y = ty_of e y.
Proof. intros H; unfold ty_of; rewrite aget_aset_other by exact H; reflexivity. Qed.
Lemma lst_aset_same {A} (m : amap (list A)) x l : lst (aset m x l) x = l.
Proof. unfold lst; rewrite aget_aset_same; reflexivity. Qed.

Lemma aget_app {A} (m1 m2 : amap A) k : aget (m1 ++ m2) k = match aget m1 k with Some v => Some v | None => aget m2 k end.
Proof. induction m1 as [|[k' v] m1 IH]; cbn [app aget]; [reflexivity|]. destruct (String.eqb k k'); [reflexivity | exact IH]. Qed.
Lemma aget_in {A} (m : amap A) k v : aget m k = Some v -> In (k, v) m.
Proof.
  induction m as [|[k' v'] m IH]; cbn [aget]; [discriminate|]. destruct (String.eqb_spec k k') as [->|N]; intros H.
  - left. congruence.
  - right. exact (IH H).
Qed.
Lemma aset_absent {A} (m : amap A) k v : aget m k = None -> aset m k v = m ++ [(k, v)].
Proof.
  induction m as [|[k' v'] m IH]; cbn [aget aset app]; [reflexivity|].
  destruct (String.eqb k k'); [discriminate|]. intros H. rewrite (IH H). reflexivity.
Qed.

Lemma mem_in v l : mem v l = true <-> In v l.
Proof.
  unfold mem. rewrite existsb_exists. split.
  - intros [y [Hy E]]. apply String.eqb_eq in E. subst y. exact Hy.
  - intros H. exists v. split; [exact H | apply String.eqb_refl].
Qed.
Lemma in_minus v l ex : In v (minus l ex) <-> In v l /\ ~ In v ex.
Proof. unfold minus. rewrite filter_In, Bool.negb_true_iff, <- Bool.not_true_iff_false, mem_in. reflexivity. Qed.
Lemma minus_nil l : minus l [] = l.
Proof. induction l as [|a l IH]; [reflexivity | exact (f_equal (cons a) IH)]. Qed.
Lemma minus_comm l a b : minus (minus l a) b = minus (minus l b) a.
Proof.
  unfold minus. induction l as [|v l IH]; [reflexivity|]. cbn [filter].
  destruct (mem v a) eqn:Ea; destruct (mem v b) eqn:Eb; cbn [negb filter]; rewrite ?Ea, ?Eb; cbn [negb]; rewrite IH; reflexivity.
Qed.

(* the closures run last to first: for each variable the FIRST one captured decides *)
Lemma run_restores_spec zs : forall e x,
  ty_of (run_restores zs e) x = match aget zs x with Some t => t | None => ty_of e x end.
Proof.
  unfold run_restores. induction zs as [|[y t] r IH]; intros e x; cbn [rev fold_left aget]; [reflexivity|].
  rewrite fold_left_app. cbn [fold_left fst snd].
  destruct (String.eqb_spec x y) as [->|N].
  - apply ty_of_aset_same.
  - rewrite ty_of_aset_other by exact N. apply IH.
Qed.

Definition positive (k : kind) (t : test) : bool := match k with KIf => negb (t_neg t) | KUnless => t_neg t end.

(* the type x had when the conditional first tested it, or has now *)
Definition first_ty (e : env) (s : nstate) (x : string) : vty :=
  match aget (orig s) x with Some o => o | None => ty_of e x end.

(* both arms of setConditionalCtx write the same places *)
Lemma set_ctx_eq k t e s :
  set_ctx k t (e, s) =
  let x := t_var t in
  let tested := lst (ifn s) x ++ [t_cls t] in
  let rest := minus (first_ty e s x) tested in
  (aset e x (if positive k t then uniq tested else minus rest (lst (excl s) x)),
   {| orig := match aget (orig s) x with Some _ => orig s | None => aset (orig s) x (ty_of e x) end;
      narrow := aset (narrow s) x (if positive k t then lst (narrow s) x ++ [t_cls t] else rest);
      ifn := aset (ifn s) x tested; conj := S (conj s); excl := excl s |}).
Proof.
  unfold set_ctx, first_ty. fold (positive k t). rewrite (lst_aset_same (ifn s)). destruct (positive k t); [reflexivity|].
  destruct (aget (orig s) (t_var t)) eqn:E; unfold lst, vty in *; [rewrite E | rewrite aget_aset_same]; reflexivity.
Qed.

(* all that a state holds about y, in this order (the proofs pick components by position): its type, its originalTs
   entry, and what narrowTs, ifNarrowTs and excludedBefore list for it (in these three tables no entry counts as the
   empty list) *)
Definition view (y : string) (es : env * nstate) :=
  (ty_of (fst es) y, aget (orig (snd es)) y, lst (narrow (snd es)) y, lst (ifn (snd es)) y, lst (excl (snd es)) y).

Lemma set_ctx_other {k t es es'} y : set_ctx k t es = es' -> y <> t_var t -> view y es' = view y es.
Proof.
  destruct es as [e s]. intros <- N. rewrite set_ctx_eq. unfold view, lst. cbn.
  rewrite ty_of_aset_other, !aget_aset_other by exact N.
  destruct (aget (orig s) (t_var t)); [|rewrite aget_aset_other by exact N]; reflexivity.
Qed.

Lemma scan_other {k c y} : forall {es zs es' zs'}, scan k c es zs = (es', zs') -> ~ In y (map t_var c) ->
  view y es' = view y es.
Proof.
  induction c as [|t r IH]; intros es zs es' zs'; [intros [= <- _] _; reflexivity|].
  intros E H. cbn [map In] in H. rewrite (IH _ _ _ _ E), (set_ctx_other y eq_refl); [reflexivity | intros -> |]; tauto.
Qed.

Lemma scan_conj {k c} : forall {es zs es' zs'}, scan k c es zs = (es', zs') ->
  conj (snd es') = conj (snd es) + List.length c.
Proof.
  induction c as [|t r IH]; intros [e s] zs es' zs'; cbn [scan List.length]; [intros [= <- _]; lia|].
  intros E. rewrite (IH _ _ _ _ E), set_ctx_eq. cbn. lia.
Qed.

(* getBackupContext is the scan, begun with the counter at zero and narrowTs remembered as what the branches before
   have excluded; after a condition with `&&` narrowTs is put back, since a failed conjunction excludes nothing *)
Lemma get_backup_scan {k c e s e' s' zs'} : get_backup k c e s = (e', s', zs') ->
  exists s1,
    scan k c (e, {| orig := orig s; narrow := narrow s; ifn := ifn s; conj := 0; excl := narrow s |}) [] = (e', s1, zs') /\
    orig s' = orig s1 /\
    narrow s' = if match k with KIf => Nat.ltb 1 (List.length c) | KUnless => false end then narrow s else narrow s1.
Proof.
  unfold get_backup. destruct (scan k c _ []) as [[e1 s1] zs1] eqn:E. intros [= <- <- <-]. exists s1.
  (* the scan has counted its tests: the two guards of the reset are one *)
  rewrite (scan_conj E : conj s1 = _). split; [reflexivity|].
  destruct k; [destruct (Nat.ltb 1 _)|]; split; reflexivity.
Qed.

Lemma narrowing_other e s x : aget (orig s) x = None -> ty_of (narrowing e s) x = ty_of e x.
Proof.
  unfold narrowing. generalize (narrow s). intros nr. revert e. induction (orig s) as [|[y ov] r IH]; intros e H; cbn [fold_left]; [reflexivity|].
  cbn [aget] in H. destruct (String.eqb_spec x y) as [->|N]; [discriminate|].
  rewrite IH by exact H. destruct (aget nr y); apply ty_of_aset_other; exact N.
Qed.

(* the last entry of originalTs for x decides *)
Lemma narrowing_at e s x : In x (map fst (orig s)) ->
  exists ov, In (x, ov) (orig s) /\ ty_of (narrowing e s) x = minus ov (lst (narrow s) x).
Proof.
  unfold narrowing, lst. generalize (narrow s). intros nr. induction (orig s) as [|[y oy] r IH] using rev_ind; [intros []|].
  rewrite map_app, fold_left_app, in_app_iff. cbn [map fold_left fst In]. intros H.
  destruct (String.eqb_spec x y) as [->|N].
  - exists oy. split; [apply in_or_app; right; left; reflexivity|].
    destruct (aget nr y); rewrite ty_of_aset_same, ?minus_nil; reflexivity.
  - destruct IH as (ov & Hin & E); [destruct H as [H|[H|[]]]; [exact H | congruence]|].
    exists ov. split; [apply in_or_app; left; exact Hin|].
    rewrite <- E. destruct (aget nr y); apply ty_of_aset_other; exact N.
Qed.

(* e0 is the environment before the conditional.  The closures deferred so far and originalTs hold the same
   entries; every entry is the type its variable has in e0; a variable without one still has its type. *)
Definition Faithful (e0 : env) (st : nrun) : Prop :=
  let '(e, s, zs) := st in
  (forall y, aget zs y = aget (orig s) y) /\
  (forall y o, In (y, o) (orig s) -> o = ty_of e0 y) /\
  (forall y, aget (orig s) y = None -> ty_of e y = ty_of e0 y).

Lemma faithful_start e : Faithful e (e, empty_state, []).
Proof. repeat split. intros y o []. Qed.

(* only originalTs matters *)
Lemma faithful_state {e0 e s zs} s' : orig s' = orig s -> Faithful e0 (e, s, zs) -> Faithful e0 (e, s', zs).
Proof. unfold Faithful. intros ->. exact (fun H => H). Qed.

Lemma faithful_first {e0 e s zs} x : Faithful e0 (e, s, zs) -> first_ty e s x = ty_of e0 x.
Proof.
  intros (_ & Ho & He). unfold first_ty. destruct (aget (orig s) x) eqn:E; [exact (Ho _ _ (aget_in _ _ _ E)) | exact (He x E)].
Qed.

Lemma faithful_set_ctx {e0 e s zs} k t : Faithful e0 (e, s, zs) ->
  Faithful e0 (set_ctx k t (e, s), zs ++ [(t_var t, ty_of e (t_var t))]).
Proof.
  intros (Hz & Ho & He). rewrite set_ctx_eq. cbn.
  (* a variable tested before: its earlier closure hides the new one; otherwise originalTs and the closures get
     the same new last entry *)
  destruct (aget (orig s) (t_var t)) eqn:E; [|rewrite (aset_absent _ _ _ E)]; repeat split.
  - intros y. rewrite aget_app, Hz. cbn [aget]. destruct (aget (orig s) y) eqn:Ey; [reflexivity|].
    destruct (String.eqb_spec y (t_var t)) as [->|N]; [congruence | reflexivity].
  - exact Ho.
  - intros y Ey. rewrite ty_of_aset_other by congruence. exact (He y Ey).
  - intros y. rewrite !aget_app, Hz. reflexivity.
  - intros y o H. apply in_app_or in H as [H|[[= <- <-]|[]]]; [exact (Ho y o H) | exact (He _ E)].
  - intros y. rewrite aget_app. cbn [aget]. destruct (aget (orig s) y) eqn:Ey; [discriminate|].
    destruct (String.eqb_spec y (t_var t)) as [->|N]; [discriminate|]. intros _.
    rewrite ty_of_aset_other by exact N. exact (He y Ey).
Qed.

Lemma faithful_scan {e0 k c zs} : forall {e s acc e' s' acc'}, scan k c (e, s) acc = (e', s', acc') ->
  Faithful e0 (e, s, zs ++ acc) -> Faithful e0 (e', s', zs ++ acc').
Proof.
  induction c as [|t r IH]; intros e s acc e' s' acc'; cbn [scan fst]; [intros [= <- <- <-] F; exact F|].
  destruct (set_ctx k t (e, s)) as [e1 s1] eqn:E1. intros E F. apply (IH _ _ _ _ _ _ E).
  rewrite app_assoc, <- E1. exact (faithful_set_ctx k t F).
Qed.

Lemma faithful_get_backup {e0 k c e s zs e' s' zs'} : get_backup k c e s = (e', s', zs') ->
  Faithful e0 (e, s, zs) -> Faithful e0 (e', s', zs ++ zs').
Proof.
  intros E F. destruct (get_backup_scan E) as (s1 & Es & Eo & _).
  apply (faithful_state _ Eo), (faithful_scan Es). rewrite app_nil_r. exact (faithful_state _ eq_refl F).
Qed.

Lemma faithful_narrowing {e0 e s zs} : Faithful e0 (e, s, zs) -> Faithful e0 (narrowing e s, s, zs).
Proof.
  intros (Hz & Ho & He). repeat split; [exact Hz | exact Ho|]. intros y Ey. rewrite narrowing_other by exact Ey. exact (He y Ey).
Qed.

(* what an else / elsif branch sees of a variable tested before: its first type without what narrowTs holds *)
Lemma faithful_sees {e0 e s zs} y : Faithful e0 (e, s, zs) -> aget (orig s) y <> None ->
  ty_of (narrowing e s) y = minus (ty_of e0 y) (lst (narrow s) y).
Proof.
  intros (_ & Ho & _) Ey. destruct (aget (orig s) y) as [o|] eqn:E; [|contradiction].
  destruct (narrowing_at e s y) as (ov & Hin & ->); [exact (in_map fst _ _ (aget_in _ _ _ E))|].
  rewrite (Ho y ov Hin). reflexivity.
Qed.

Lemma faithful_restores {e0 e s zs} x : Faithful e0 (e, s, zs) -> ty_of (run_restores zs e) x = ty_of e0 x.
Proof. intros F. rewrite run_restores_spec, (proj1 F). exact (faithful_first x F). Qed.

(* after `end` every variable has the type it had before the conditional, whatever the condition (C10_restore,
   C11_conditionals_leave_no_trace) *)
Theorem conditional_restores k c e x : ty_of (snd (conditional k c e)) x = ty_of e x.
Proof.
  unfold conditional. destruct (get_backup k c e empty_state) as [[e1 s1] zs] eqn:E.
  pose proof (faithful_get_backup E (faithful_start e)) as F. exact (faithful_restores x (faithful_narrowing F)).
Qed.

(* what a test admits in its own branch / in the other branch, by set semantics on the variants *)
Definition admit_then (k : kind) (t : test) (ty : vty) : vty := if positive k t then [t_cls t] else minus ty [t_cls t].
Definition admit_else (k : kind) (t : test) (ty : vty) : vty := if positive k t then minus ty [t_cls t] else minus ty (minus ty [t_cls t]).

(* what narrowTs holds for the variable after the test, which the later branches lose: o is the variable's first
   type, ex what narrowTs held before (a test that narrows by exclusion forgets ex) *)
Definition exclude (k : kind) (t : test) (o : vty) (ex : list cls) : list cls :=
  if positive k t then ex ++ [t_cls t] else minus o [t_cls t].

(* A test on x that the current condition has not tested before (ifNarrowTs), in a faithful state.  Its branch is
   reached by what the branches before this condition (excl) have left of x. *)
Lemma set_ctx_own {e0 k t e s zs e' s'} : set_ctx k t (e, s) = (e', s') -> Faithful e0 (e, s, zs) ->
  lst (ifn s) (t_var t) = [] ->
  let x := t_var t in let o := ty_of e0 x in
  ty_of e' x = admit_then k t (minus o (lst (excl s) x)) /\ aget (orig s') x <> None /\
  lst (narrow s') x = exclude k t o (lst (narrow s) x).
Proof.
  rewrite set_ctx_eq. intros [= <- <-] F Hi. cbn.
  rewrite ty_of_aset_same, lst_aset_same, (faithful_first _ F), Hi, minus_comm.
  split; [reflexivity|]. split; [|reflexivity].
  destruct (aget (orig s) (t_var t)) eqn:E; [rewrite E | rewrite aget_aset_same]; discriminate.
Qed.

Lemma scan_own {e0 k c} : forall {e s acc e' s' acc'}, scan k c (e, s) acc = (e', s', acc') ->
  Faithful e0 (e, s, acc) -> NoDup (map t_var c) -> (forall t, In t c -> lst (ifn s) (t_var t) = []) ->
  forall t, In t c ->
  let x := t_var t in let o := ty_of e0 x in
  ty_of e' x = admit_then k t (minus o (lst (excl s) x)) /\ aget (orig s') x <> None /\
  lst (narrow s') x = exclude k t o (lst (narrow s) x).
Proof.
  induction c as [|t0 r IH]; intros e s acc e' s' acc' E F Hnd Hi t Hin; [destruct Hin|].
  cbn [scan fst] in E. cbn [map] in Hnd. apply NoDup_cons_iff in Hnd as [Hni Hnd].
  pose proof (faithful_set_ctx k t0 F) as F1.
  destruct (set_ctx k t0 (e, s)) as [e1 s1] eqn:E1. pose proof (fun y => set_ctx_other y E1) as V.
  destruct Hin as [<-|Hin]; cbv zeta.
  - (* the test itself: the later tests are on other variables *)
    injection (scan_other E Hni) as -> -> -> _ _. exact (set_ctx_own E1 F (Hi _ (or_introl eq_refl))).
  - (* a later test: the first one was on another variable *)
    assert (N : forall t', In t' r -> t_var t' <> t_var t0)
      by (intros t' Ht' Ex; apply Hni; rewrite <- Ex; exact (in_map t_var _ _ Ht')).
    injection (V _ (N t Hin)) as _ _ <- _ <-. apply (IH _ _ _ _ _ _ E F1 Hnd); [|exact Hin].
    intros t' Ht'. injection (V _ (N t' Ht')) as _ _ _ ->. exact (Hi t' (or_intror Ht')).
Qed.

(* a condition that tests each variable once: the variable of t in the branch of the condition, and in the else
   branch, which loses what narrowTs then holds *)
Lemma conditional_own k c e t : NoDup (map t_var c) -> In t c ->
  let o := ty_of e (t_var t) in
  ty_of (fst (fst (conditional k c e))) (t_var t) = admit_then k t o /\
  ty_of (snd (fst (conditional k c e))) (t_var t) =
    minus o (if match k with KIf => Nat.ltb 1 (List.length c) | KUnless => false end then [] else exclude k t o []).
Proof.
  intros Hnd Hin. unfold conditional. destruct (get_backup k c e empty_state) as [[e1 s1] zs] eqn:E. cbn [fst snd].
  pose proof (faithful_get_backup E (faithful_start e)) as F. destruct (get_backup_scan E) as (s2 & Es & Eo & En).
  destruct (scan_own Es (faithful_start e) Hnd (fun _ _ => eq_refl) t Hin) as (H1 & H2 & H3).
  rewrite <- Eo in H2. rewrite H1, (faithful_sees _ F H2), En.
  split; [apply f_equal, minus_nil|]. destruct (match k with KIf => _ | KUnless => _ end); [reflexivity | apply f_equal, H3].
Qed.

(* `if c0` is the step of an `elsif c0` from the empty state *)
Lemma chain_from_if c0 cs e :
  chain_from true cs (get_backup KIf c0 e empty_state) [fst (fst (get_backup KIf c0 e empty_state))] =
  chain_from true (c0 :: cs) (e, empty_state, []) [].
Proof.
  cbn [chain_from elsif_step narrowing fold_left orig empty_state app]. change (reset_ifn empty_state) with empty_state.
  destruct (get_backup KIf c0 e empty_state) as [[e2 s2] zs2]. reflexivity.
Qed.

Lemma faithful_elsif_step {e0 st} c : Faithful e0 st -> Faithful e0 (elsif_step true c st).
Proof.
  destruct st as [[e s] zs]. intros F. unfold elsif_step.
  destruct (get_backup KIf c (narrowing e s) (reset_ifn s)) as [[e2 s2] zs2] eqn:E.
  exact (faithful_get_backup E (faithful_state _ eq_refl (faithful_narrowing F))).
Qed.

Lemma faithful_chain_from {e0 cs} : forall {st acc brs st'}, chain_from true cs st acc = (brs, st') ->
  Faithful e0 st -> Faithful e0 st'.
Proof.
  induction cs as [|c r IH]; intros st acc brs st'; [intros [= _ <-] F; exact F|].
  intros E F. exact (IH _ _ _ _ E (faithful_elsif_step c F)).
Qed.

(* after `end` every variable has its pre-chain type again: for every number of elsif branches, every condition
   in each, with or without else *)
Theorem chain_restores c0 cs has_else e x : ty_of (snd (chain true c0 cs has_else e)) x = ty_of e x.
Proof.
  unfold chain. rewrite chain_from_if. destruct (chain_from true _ _ _) as [brs [[e1 s1] zs]] eqn:E. cbn [snd].
  pose proof (faithful_chain_from E (faithful_start e)) as F.
  destruct has_else; [apply faithful_narrowing in F|]; exact (faithful_restores x F).
Qed.
