(* C06 (token layer): the row the parser reports is one plus the line breaks consumed so far — a line break
   token adds one, a freshly lexed string literal adds the line breaks it contains, a replayed token adds nothing. *)
From RT Require Import Model.Parser Proofs.ParserP.
Open Scope Z_scope.

Section Rows.
  Variable is_uspace is_udigit is_uupper is_ulower : N -> bool.
  Variable V : lex_variant.
  Variable bc : list (list N).

  Definition breaks_of (r : read_result) (replayed : bool) : Z :=
    match r with
    | RTok (KPunct c) _ => if (N.eqb c ch_nl) && negb replayed then 1 else 0
    | RTok (KString s) _ => if replayed then 0 else count_nl s
    | _ => 0
    end.

  Lemma breaks_of_name s b replayed : breaks_of (RTok (classify is_uupper is_ulower bc s) b) replayed = 0.
  Proof. pose proof (classify_name is_uupper is_ulower bc s). destruct (classify is_uupper is_ulower bc s); easy. Qed.

  Lemma to_N_eqb t c : 0 < t -> N.eqb (Z.to_N t) c = (t =? Z.of_N c).
  Proof. intros Ht. destruct (Z.eqb_spec t (Z.of_N c)), (N.eqb_spec (Z.to_N t) c); try reflexivity; lia. Qed.

  (* one Read: the reported row moves by exactly the line breaks the token stands for *)
  Theorem read_row_accounting fuel p r p' :
    parser_read is_uspace is_udigit is_uupper is_ulower V bc fuel p = Some (r, p') ->
    r <> RError ->
    prow p' = prow p + breaks_of r (pungot p).
  Proof.
    intros Hr Hne. apply parser_read_inv in Hr as (p1 & Hg & Hro).
    destruct (get_token_fields _ _ _ _ _ _ Hg) as (Hrow & Hrep & _).
    (* getToken has counted the token if it is a line break; Read adds the line breaks inside a string *)
    destruct Hro as [z E _|E|s E _|E|s E _|E|Hpos _|]; cbn [finish with_row prow]; [..|contradiction].
    1, 2, 4, 5, 6: rewrite ?breaks_of_name, Hrow, E; destruct (pungot p); reflexivity.
    - rewrite Hrep, Hrow, E. destruct (pungot p); cbn; lia.
    - cbn [breaks_of]. rewrite Hrow, (to_N_eqb _ _ Hpos). destruct (pungot p), (ptoken p1 =? Z.of_N ch_nl); reflexivity.
  Qed.

  Lemma read_clears fuel p r p' :
    parser_read is_uspace is_udigit is_uupper is_ulower V bc fuel p = Some (r, p') -> pungot p' = false.
  Proof.
    intros Hr. apply parser_read_inv in Hr as (p1 & Hg & Hro).
    apply read_of_frame in Hro as (_ & _ & _ & ->). apply (get_token_fields _ _ _ _ _ _ Hg).
  Qed.

  (* rows_from row l: every entry's row is the previous row plus the breaks of its own token *)
  Fixpoint rows_from (row : Z) (l : list (read_result * Z * Z)) : Prop :=
    match l with
    | [] => True
    | (r, row', _) :: t => row' = row + breaks_of r false /\ rows_from row' t
    end.

  Theorem read_all_rows n fuel : forall p l,
    read_all is_uspace is_udigit is_uupper is_ulower V bc n fuel p = Some l ->
    pungot p = false ->
    (forall x, In x l -> fst (fst x) <> RError) ->
    rows_from (prow p) l.
  Proof.
    induction n as [|n IH]; intros p l; cbn [read_all]; [intros [= <-]; intros; exact I|].
    destruct (parser_read is_uspace is_udigit is_uupper is_ulower V bc fuel p) as [[r p']|] eqn:Er; [|discriminate].
    intros H Hu Hne.
    assert (Hrow : r <> RError -> prow p' = prow p + breaks_of r false).
    { intros Hr. rewrite (read_row_accounting _ _ _ _ Er Hr), Hu. reflexivity. }
    destruct r as [k sp| |].
    - destruct (read_all is_uspace is_udigit is_uupper is_ulower V bc n fuel p') as [t|] eqn:Et; [|discriminate].
      injection H as <-. split; [apply Hrow; discriminate|].
      apply (IH p' t Et (read_clears _ _ _ _ Er)). intros x Hx. apply Hne. right; exact Hx.
    - injection H as <-. split; [apply Hrow; discriminate | exact I].
    - injection H as <-. destruct (Hne _ (or_introl eq_refl) eq_refl).
  Qed.

  (* closed form: the row of the k-th Read *)
  Fixpoint total_breaks (l : list (read_result * Z * Z)) : Z :=
    match l with [] => 0 | (r, _, _) :: t => breaks_of r false + total_breaks t end.

  Lemma last_cons {A} (a : A) l d : List.last (a :: l) d = List.last l a.
  Proof.
    revert a d. induction l as [|b l IH]; intros a d; [reflexivity|].
    change (List.last (b :: l) d = List.last (b :: l) a). rewrite !IH. reflexivity.
  Qed.

  Lemma rows_from_last row l : rows_from row l ->
    forall k, (k <= List.length l)%nat ->
    List.last (map (fun x => snd (fst x)) (firstn k l)) row = row + total_breaks (firstn k l).
  Proof.
    revert row. induction l as [|[[r row'] e] t IH]; intros row Hr k Hk; [rewrite firstn_nil; cbn; lia|].
    destruct k as [|k]; [cbn; lia|]. destruct Hr as [E Ht]. cbn [firstn map total_breaks fst snd List.length] in *.
    rewrite last_cons, (IH row' Ht k) by lia. lia.
  Qed.
End Rows.
