(* Termination, progress and consumption of the lexer model (Model/Lexer.v), repaired variant. *)
From RT Require Import Model.Lexer.
Open Scope N_scope.

(* The potential: what is still to be delivered, weighted by where it sits.  A rune still in the text weighs 3, so
   that reading it pays for pushing it back or for moving it to the history (2 each; lexDigit moves a '.' and the
   rune after it there) and leaves a unit of progress.  Rune 0 pushed back weighs 1 only: at end of input Read answers
   it for nothing, and that push-back is the one step that makes the potential grow. *)
Definition w_cur (c : N) : nat := if c =? 0 then 1%nat else 2%nat.
Definition phi (r : reader) : nat :=
  (3 * length (rest r) + 2 * length (hist r) + (if ungot r then w_cur (cur r) else 0))%nat.

Lemma w_cur_bounds c : (1 <= w_cur c <= 2)%nat.
Proof. unfold w_cur; destruct (c =? 0); lia. Qed.

Lemma w_cur_nz c : c <> 0 -> w_cur c = 2%nat.
Proof. intros H. unfold w_cur. apply N.eqb_neq in H. rewrite H. reflexivity. Qed.

Lemma eof_after_eof : rd_eof (Rd [] false 0 []) = true.
Proof. reflexivity. Qed.

Lemma eof_empty r : rd_eof r = true -> rest r = [] /\ hist r = [] /\ ungot r = false.
Proof. unfold rd_eof. destruct (rest r), (hist r), (ungot r); try discriminate. auto. Qed.

Lemma eof_phi r : rd_eof r = true -> phi r = 0%nat.
Proof. intros H. apply eof_empty in H as (H1 & H2 & H3). unfold phi. rewrite H1, H2, H3. reflexivity. Qed.

Lemma read_after_unread r : ungot r = false -> rd_read (rd_unread r) = (cur r, r).
Proof. destruct r as [rs u c h]; cbn. intros ->. reflexivity. Qed.

Lemma read_unread_ungot r : ungot r = true -> rd_unread (snd (rd_read r)) = r.
Proof. destruct r as [rs u c h]; cbn. intros ->. reflexivity. Qed.

Lemma read_hist r h hs : ungot r = false -> hist r = h :: hs -> rd_read r = (h, Rd (rest r) false h hs).
Proof. unfold rd_read. intros -> ->. reflexivity. Qed.

Lemma unread_idem r : rd_unread (rd_unread r) = rd_unread r.
Proof. reflexivity. Qed.

Lemma phi_unread r : ungot r = false -> phi (rd_unread r) = (phi r + w_cur (cur r))%nat.
Proof. unfold phi. cbn [rd_unread rest hist ungot cur]. intros ->. lia. Qed.

Lemma phi_push r c : phi (rd_push_hist r c) = (phi r + 2)%nat.
Proof. unfold phi, rd_push_hist. cbn [rest hist ungot cur]. rewrite app_length. cbn [length]. lia. Qed.

(* rune c has been read since r0, and r is the reader that read left *)
Definition delivered (r0 : reader) (c : N) (r : reader) : Prop :=
  cur r = c /\ ungot r = false /\ (hist r0 = [] -> hist r = []) /\ (phi r + w_cur c <= phi r0)%nat.

(* what one Read does: at end of input it answers rune 0 and stays there; otherwise it delivers a rune, and the
   potential falls by at least the weight that rune would have if pushed back *)
Inductive read_view (r : reader) : N * reader -> Prop :=
| read_end : rd_eof r = true -> read_view r (0, Rd [] false 0 [])
| read_rune c r1 : rd_eof r = false -> delivered r c r1 -> read_view r (c, r1).

Lemma read_ok r : read_view r (rd_read r).
Proof.
  destruct r as [rs [|] c h]; unfold rd_read.
  - apply read_rune; [destruct rs, h; reflexivity|]. unfold delivered, phi. cbn [ungot hist rest cur]. repeat split; auto; lia.
  - destruct h as [|x hs]; [destruct rs as [|y ys]|].
    + apply read_end. reflexivity.
    + apply read_rune; [reflexivity|]. unfold delivered, phi. cbn [ungot hist rest cur length].
      pose proof (w_cur_bounds y). repeat split; lia.
    + apply read_rune; [destruct rs; reflexivity|]. unfold delivered, phi. cbn [ungot hist rest cur length].
      pose proof (w_cur_bounds x). repeat split; try discriminate; lia.
Qed.

Lemma delivered_lt r c r1 : delivered r c r1 -> (phi r1 < phi r)%nat.
Proof. intros (_ & _ & _ & H). pose proof (w_cur_bounds c). lia. Qed.

Lemma read_nonzero_phi r :
  fst (rd_read r) <> 0 -> (phi (snd (rd_read r)) + 2 <= phi r)%nat.
Proof.
  destruct (read_ok r) as [_ | c r1 _ (_ & _ & _ & H)]; cbn [fst snd]; intros Hc; [congruence|].
  rewrite (w_cur_nz c Hc) in H. exact H.
Qed.

Lemma unread_phi_after_read r :
  (phi (rd_unread (snd (rd_read r))) <= phi (snd (rd_read r)) + 2)%nat.
Proof.
  assert (Hu : ungot (snd (rd_read r)) = false) by (destruct (read_ok r) as [_ | c r1 _ (_ & Hu & _)]; [reflexivity|exact Hu]).
  rewrite (phi_unread _ Hu). pose proof (w_cur_bounds (cur (snd (rd_read r)))). lia.
Qed.

(* whatever Read answers: the potential does not grow, and pushing the answer back costs one unit only at end of
   input *)
Lemma read_any r c r1 : rd_read r = (c, r1) ->
  (hist r = [] -> hist r1 = []) /\ (phi r1 <= phi r)%nat /\ (phi (rd_unread r1) <= phi r + 1)%nat /\
  cur r1 = c /\ ungot r1 = false.
Proof.
  destruct (read_ok r) as [_ | c' r' _ (Hc & Hu & Hh & Hp)]; intros [= <- <-].
  - cbn. repeat split; lia.
  - rewrite (phi_unread _ Hu), Hc. repeat split; auto; lia.
Qed.

(* what a loop of the lexer, or a branch of Advance that only looks ahead, leaves behind: it stops after some Reads,
   the last rune possibly pushed back; only a push-back at end of input makes the potential grow, and then by one, and
   not even that when it was entered on a pushed-back rune, which is paid for already *)
Definition loop_post (r r' : reader) : Prop :=
  (phi r' <= phi r + 1)%nat /\ (ungot r = true -> phi r' <= phi r)%nat /\ (hist r = [] -> hist r' = []).

Lemma loop_refl r : loop_post r r.
Proof. repeat split; auto; lia. Qed.

Lemma loop_end r r' : rd_eof r = true -> (phi r' <= 1)%nat -> hist r' = [] -> loop_post r r'.
Proof.
  intros He Hp Hh. apply eof_empty in He as (_ & _ & Hu). repeat split; [lia|congruence|auto].
Qed.

Lemma delivered_unread r c r1 : delivered r c r1 -> (phi (rd_unread r1) <= phi r)%nat.
Proof. intros (Hc & Hu & _ & Hp). rewrite (phi_unread _ Hu), Hc. exact Hp. Qed.

Lemma loop_unread r c r1 : delivered r c r1 -> loop_post r (rd_unread r1).
Proof. intros Hd. pose proof (delivered_unread _ _ _ Hd). destruct Hd as (_ & _ & Hh & _). repeat split; [lia|lia|exact Hh]. Qed.

Lemma loop_step r c r1 r' : delivered r c r1 -> loop_post r1 r' -> loop_post r r'.
Proof.
  intros Hd (Hp & _ & Hh'). pose proof (delivered_lt _ _ _ Hd). destruct Hd as (_ & _ & Hh & _).
  repeat split; [lia|lia|auto].
Qed.

(* any Read may come before a loop *)
Lemma loop_skip r c r1 r' : rd_read r = (c, r1) -> loop_post r1 r' -> loop_post r r'.
Proof.
  destruct (read_ok r) as [He | c0 r0 _ Hd]; intros [= <- <-]; [|exact (loop_step _ _ _ _ Hd)].
  intros (Hp & _ & Hh). apply loop_end; auto.
Qed.

(* ... and so may a Read whose rune is pushed back *)
Lemma loop_peek r c r1 r' : rd_read r = (c, r1) -> loop_post (rd_unread r1) r' -> loop_post r r'.
Proof.
  destruct (read_ok r) as [He | c0 r0 _ Hd]; intros [= <- <-] (_ & Hp & Hh); specialize (Hp eq_refl).
  - apply loop_end; auto.
  - pose proof (delivered_unread _ _ _ Hd). destruct Hd as (_ & _ & Hh0 & _). repeat split; [lia|lia|auto].
Qed.

(* loop_post r r' read as "r' is reached from r": the branches of Advance say by these which reader they end on *)
Create HintDb reach.
#[local] Hint Resolve loop_refl loop_skip loop_peek : reach.

Lemma delivered_trans r0 c r c' r' : delivered r0 c r -> delivered r c' r' -> delivered r0 c' r'.
Proof.
  intros (_ & _ & Hh & Hp) (Hc' & Hu' & Hh' & Hp').
  repeat split; auto; lia.
Qed.

Section Lex.
  Variable is_uspace is_udigit : N -> bool.
  Variable V : lex_variant.
  Hypothesis Hfix_eof : fix_eof V = true.
  Hypothesis Hfix_nul : fix_nul V = true.
  Hypothesis Hsp0 : is_uspace 0 = false.
  Hypothesis Hdg0 : is_udigit 0 = false.
  (* the '.' that lexDigit pushes back must not be skipped as white space by the next Advance; lexDigit tests x/o/b,
     '_' and '.' before IsDigit, so a digit that is one of them would not be lexed as a digit *)
  Hypothesis Hsp_dot : is_uspace ch_dot = false.
  Hypothesis Hdg_plain : forall c, is_udigit c = true ->
    ((c =? 120) || (c =? 111) || (c =? 98)) = false /\ (c =? ch_under) = false /\ (c =? ch_dot) = false.

  Lemma hit_eof_end : hit_eof V 0 (Rd [] false 0 []) = true.
  Proof. unfold hit_eof. rewrite Hfix_eof. reflexivity. Qed.

  Lemma is_ident_char_0 : is_ident_char is_uspace 0 = false.
  Proof. unfold is_ident_char. rewrite Hsp0. reflexivity. Qed.

  (* Each of the six scanning loops is handled alike: at end of input Read answers rune 0, on which the loop stops
     (pushed back, rune 0 weighs 1: loop_end); a delivered rune either stops it or lowers the potential, and with it
     the fuel needed.  skipSpace and lexDigit have statements of their own (skipped, lex_digit_clean). *)
  Lemma to_space_eat_ok fuel : forall acc sp r, (phi r < fuel)%nat ->
    exists s sp' r', to_space_eat is_uspace V fuel acc sp r = Some (s, sp', r') /\ loop_post r r'.
  Proof.
    induction fuel as [|f IH]; intros acc sp r Hf; [lia|]. cbn [to_space_eat].
    destruct (read_ok r) as [He | c r1 _ Hd].
    - rewrite Hsp0, hit_eof_end. eauto 7 using loop_end.
    - destruct (is_uspace c); [eauto 7 using loop_unread|].
      destruct (hit_eof V c r1); [eauto 7 using loop_unread|].
      destruct (IH (c :: acc) sp r1) as (s & sp' & r' & Hs & Hp); [apply delivered_lt in Hd; lia|].
      eauto 7 using loop_step.
  Qed.

  Lemma to_nonident_eat_ok fuel : forall acc sp r, (phi r < fuel)%nat ->
    exists s sp' r', to_nonident_eat is_uspace fuel acc sp r = Some (s, sp', r') /\ loop_post r r'.
  Proof.
    induction fuel as [|f IH]; intros acc sp r Hf; [lia|]. cbn [to_nonident_eat].
    destruct (read_ok r) as [He | c r1 _ Hd].
    - rewrite is_ident_char_0. cbn [negb]. eauto 7 using loop_end.
    - destruct (negb (is_ident_char is_uspace c)); [eauto 7 using loop_unread|].
      destruct (IH (c :: acc) sp r1) as (s & sp' & r' & Hs & Hp); [apply delivered_lt in Hd; lia|].
      eauto 7 using loop_step.
  Qed.

  Lemma hex_digits_ok fuel : forall r, (phi r < fuel)%nat ->
    exists r', hex_digits fuel r = Some r' /\ loop_post r r'.
  Proof.
    induction fuel as [|f IH]; intros r Hf; [lia|]. cbn [hex_digits].
    destruct (read_ok r) as [He | c r1 _ Hd].
    - cbn. eauto using loop_end.
    - destruct (IH r1) as (r' & Hs & Hp); [apply delivered_lt in Hd; lia|].
      destruct ((c =? 120) || (c =? 111) || (c =? 98)); [eauto using loop_step|].
      destruct (negb (is_hex c)); eauto using loop_unread, loop_step.
  Qed.

  Lemma lex_ident_ok fuel : forall first acc r, (phi r < fuel)%nat ->
    exists s r', lex_ident is_uspace V fuel first acc r = Some (s, r') /\ loop_post r r'.
  Proof.
    induction fuel as [|f IH]; intros first acc r Hf; [lia|]. cbn [lex_ident].
    destruct (read_ok r) as [He | c r1 _ Hd].
    - rewrite is_ident_char_0, hit_eof_end, !andb_false_r. cbn [negb]. eauto 6 using loop_end.
    - destruct (IH first (c :: acc) r1) as (s & r' & Hs & Hp); [apply delivered_lt in Hd; lia|].
      destruct ((first =? ch_star) && (c =? ch_eq)); [eauto 6 using loop_step, loop_refl|].
      destruct (negb (is_ident_char is_uspace c)); [|eauto 6 using loop_step].
      destruct (has_colon_quote acc && negb (c =? ch_nl) && negb (c =? ch_dq) && negb (hit_eof V c r1));
        eauto 6 using loop_unread, loop_step.
  Qed.

  Lemma lex_string_ok fuel : forall start acc r, (phi r < fuel)%nat ->
    exists s r', lex_string V fuel start acc r = Some (s, r') /\ loop_post r r'.
  Proof.
    induction fuel as [|f IH]; intros start acc r Hf; [lia|]. cbn [lex_string].
    destruct (read_ok r) as [He | c r1 _ Hd].
    - rewrite hit_eof_end. destruct (0 =? start); eauto 6 using loop_end.
    - destruct (c =? start); [eauto 6 using loop_step, loop_refl|].
      destruct (hit_eof V c r1); [eauto 6 using loop_step, loop_refl|].
      pose proof (delivered_lt _ _ _ Hd).
      destruct (c =? ch_bslash).
      + (* the escaped rune is read whatever it is *)
        destruct (rd_read r1) as [c2 r2] eqn:E2.
        destruct (IH start (c2 :: acc) r2) as (s & r' & Hs & Hp); [pose proof (read_any _ _ _ E2); lia|].
        eauto 6 using loop_step, loop_skip.
      + destruct (IH start (c :: acc) r1) as (s & r' & Hs & Hp); [lia|]. eauto 6 using loop_step.
  Qed.

  Lemma skip_comment_loop_ok fuel : forall acc r, (phi r < fuel)%nat ->
    exists s r', skip_comment_loop V fuel acc r = Some (s, r') /\ loop_post r r'.
  Proof.
    induction fuel as [|f IH]; intros acc r Hf; [lia|]. cbn [skip_comment_loop].
    destruct (read_ok r) as [He | c r1 _ Hd].
    - rewrite hit_eof_end. cbn. eauto 6 using loop_end.
    - destruct (c =? ch_nl); [eauto 6 using loop_unread|].
      destruct (hit_eof V c r1); [eauto 6 using loop_unread|].
      destruct (IH (c :: acc) r1) as (s & r' & Hs & Hp); [apply delivered_lt in Hd; lia|].
      eauto 6 using loop_step.
  Qed.

  Definition stop_space (c : N) : bool := negb (is_uspace c) || (c =? ch_nl).

  (* skipSpace, entered on reader r0, leaves pushed back the first rune c that is not skippable white space.  It
     has paid for c, unless it was entered at end of input, where Read answers rune 0 for nothing. *)
  Definition skipped (r0 : reader) (l' : lexer) : Prop :=
    exists c r, rd l' = rd_unread r /\ stop_space c = true /\ cur r = c /\ ungot r = false /\
      (hist r0 = [] -> hist r = []) /\ (c <> 0 \/ rd_eof r = false -> (phi r + w_cur c <= phi r0)%nat).

  (* at end of input Read answers rune 0, on which the loop stops *)
  Lemma skip_space_loop_end fuel r0 l : (0 < fuel)%nat ->
    exists l', skip_space_loop is_uspace fuel 0 l (Rd [] false 0 []) = Some l' /\ skipped r0 l'.
  Proof.
    destruct fuel as [|f]; [lia|]. intros _. cbn [skip_space_loop]. rewrite Hsp0.
    eexists; split; [reflexivity|]. exists 0, (Rd [] false 0 []). unfold stop_space. rewrite Hsp0.
    repeat split. intros [H|H]; [congruence|discriminate].
  Qed.

  Lemma skip_space_loop_ok fuel : forall r0 c l r, delivered r0 c r -> (phi r + 1 < fuel)%nat ->
    exists l', skip_space_loop is_uspace fuel c l r = Some l' /\ skipped r0 l'.
  Proof.
    induction fuel as [|f IH]; intros r0 c l r Hd Hf; [lia|]. cbn [skip_space_loop].
    fold (stop_space c). destruct (stop_space c) eqn:Es.
    { eexists; split; [reflexivity|]. destruct Hd as (Hc & Hu & Hh & Hp). exists c, r. auto 7. }
    destruct (read_ok r) as [He | c' r1 _ Hd1].
    - apply skip_space_loop_end. lia.
    - apply IH; [exact (delivered_trans _ _ _ _ _ Hd Hd1)|apply delivered_lt in Hd1; lia].
  Qed.

  Lemma skip_space_ok fuel l : (phi (rd l) + 1 < fuel)%nat ->
    exists l', skip_space is_uspace fuel l = Some l' /\ skipped (rd l) l'.
  Proof.
    intros Hf. unfold skip_space. destruct (read_ok (rd l)) as [He | c r1 _ Hd].
    - apply skip_space_loop_end. lia.
    - apply skip_space_loop_ok; [exact Hd|apply delivered_lt in Hd; lia].
  Qed.

  (* between two Advance calls the history is empty, or holds the two runes lexDigit pushed back *)
  Definition inv (r : reader) : Prop :=
    hist r = [] \/ exists n, hist r = [ch_dot; n] /\ ungot r = false /\ is_udigit n = false.

  Definition tok_wf (l : lexer) : Prop :=
    (tok l = T_INT /\ exists z, val l = VIntLit z) \/ (tok l = T_FLOAT /\ val l = VFloatLit) \/
    (tok l = T_STRING /\ exists s, val l = VStrLit s) \/
    ((tok l = T_UNKNOWN \/ tok l = T_NIL) /\ exists s, val l = VId s) \/
    (exists c, tok l = Z.of_N c /\ (existsb (N.eqb c) single_tokens = true \/ c = ch_dot)).

  (* what one pass through Advance achieves, B being the potential it started from *)
  Definition step_post (B : nat) (o : outcome) : Prop :=
    match o with
    | Tok l' => inv (rd l') /\ (phi (rd l') < B)%nat /\ tok_wf l'
    | Again l' => hist (rd l') = [] /\ (phi (rd l') < B)%nat
    | Eos l' => rd_eof (rd l') = true
    | OutOfFuel => False
    end.

  Lemma tok_post B l r : hist r = [] /\ (phi r < B)%nat -> tok_wf l -> step_post B (Tok (set_rd l r)).
  Proof. intros [Hh Hp] Hw. exact (conj (or_introl Hh) (conj Hp Hw)). Qed.

  Lemma int_wf l z : tok_wf (set_tok l T_INT (VIntLit z)).
  Proof. left. split; [reflexivity|eexists; reflexivity]. Qed.

  Lemma string_wf l s : tok_wf (set_tok l T_STRING (VStrLit s)).
  Proof. do 2 right; left. split; [reflexivity|eexists; reflexivity]. Qed.

  Lemma name_wf l t s : t = T_UNKNOWN \/ t = T_NIL -> tok_wf (set_tok l t (VId s)).
  Proof. intros H. do 3 right; left. split; [exact H|eexists; reflexivity]. Qed.

  Lemma rune_wf l c : existsb (N.eqb c) single_tokens = true \/ c = ch_dot -> tok_wf (set_tok_only l (Z.of_N c)).
  Proof. intros H. do 4 right. exists c. split; [reflexivity|exact H]. Qed.

  Lemma tok_id_post B l s r : hist r = [] /\ (phi r < B)%nat -> step_post B (Tok (id_tok l s r)).
  Proof. intros H. apply tok_post; auto using name_wf. Qed.

  #[local] Hint Resolve tok_id_post : reach.

  Lemma digit_token_wf l buf t v : digit_token buf = (t, v) -> tok_wf (set_tok l t v).
  Proof.
    assert (Hfl : tok_wf (set_tok l T_FLOAT VFloatLit)) by (right; left; split; reflexivity).
    unfold digit_token. destruct buf; [intros [= <- <-]; exact Hfl|].
    destruct (dec_value 0%Z (n :: buf)); [|intros [= <- <-]; exact Hfl].
    destruct (z <? 9223372036854775808)%Z; intros [= <- <-]; [apply int_wf|exact Hfl].
  Qed.

  Lemma read_clean_cost r : hist r = [] -> ungot r = false -> rd_eof r = false ->
    (phi (snd (rd_read r)) + 3 = phi r)%nat.
  Proof.
    unfold rd_read, phi, rd_eof. destruct r as [rs u c h].
    intros -> ->. destruct rs; cbn [fst snd rest ungot cur hist length negb]; [discriminate|intros _; lia].
  Qed.

  (* lexDigit on a reader with nothing pushed back *)
  Lemma lex_digit_clean fuel : forall acc l r B,
    hist r = [] -> ungot r = false -> (phi r + 2 < fuel)%nat -> (phi r + 1 < B)%nat ->
    exists l', lex_digit is_udigit fuel acc l r = Some l' /\ step_post B (Tok l').
  Proof.
    induction fuel as [|f IH]; intros acc l r B Hh Hu Hf HB; [lia|]. cbn [lex_digit].
    generalize (read_clean_cost r Hh Hu). destruct (read_ok r) as [He | c r1 Hne Hd]; cbn [snd]; intros Hcost.
    - rewrite Hdg0. destruct (digit_token (rev acc)) as [t v] eqn:Ed.
      eexists; split; [reflexivity|]. apply tok_post; [split; [reflexivity|cbn; lia]|exact (digit_token_wf _ _ _ _ Ed)].
    - specialize (Hcost Hne). pose proof (delivered_unread _ _ _ Hd) as Hun. destruct Hd as (Hc & Hu1 & Hh1 & _).
      specialize (Hh1 Hh).
      destruct ((c =? 120) || (c =? 111) || (c =? 98)).
      { destruct (hex_digits_ok f (rd_unread r1)) as (r2 & -> & _ & Hp & Hh2); [lia|]. specialize (Hp eq_refl).
        eexists; split; [reflexivity|]. apply tok_post; [split; [auto|lia]|apply int_wf]. }
      destruct (c =? ch_under); [apply IH; auto; lia|].
      destruct (c =? ch_dot) eqn:Edot.
      { (* a '.' not followed by a digit: both runes go to the history, 2 units each *)
        destruct (rd_read r1) as [n r2] eqn:E2. destruct (read_any _ _ _ E2) as (Hh2 & Hp2 & _ & _ & Hu2).
        specialize (Hh2 Hh1).
        destruct (negb (is_udigit n)) eqn:En; [|apply IH; auto; lia].
        destruct (digit_token (rev acc)) as [t v] eqn:Ed. eexists; split; [reflexivity|].
        apply N.eqb_eq in Edot. apply negb_true_iff in En.
        split; [|split; [|exact (digit_token_wf _ _ _ _ Ed)]]; cbn [rd set_rd].
        - right. exists n. unfold rd_push_hist. rewrite Hh2, Edot. auto.
        - rewrite !phi_push. lia. }
      destruct (negb (is_udigit c)); [|apply IH; auto; lia].
      destruct (digit_token (rev acc)) as [t v] eqn:Ed. eexists; split; [reflexivity|].
      apply tok_post; [split; [auto|lia]|exact (digit_token_wf _ _ _ _ Ed)].
  Qed.

  (* lexDigit entered on a digit that was pushed back: the digit itself is consumed *)
  Lemma lex_digit_entry fuel l r B :
    hist r = [] -> ungot r = false -> is_udigit (cur r) = true -> (phi r + 3 < fuel)%nat -> (phi r + 1 < B)%nat ->
    exists l', lex_digit is_udigit fuel [] l (rd_unread r) = Some l' /\ step_post B (Tok l').
  Proof.
    intros Hh Hu Hd Hf HB. destruct fuel as [|f]; [lia|]. cbn [lex_digit].
    rewrite (read_after_unread r Hu). destruct (Hdg_plain _ Hd) as (H1 & H2 & H3).
    rewrite H1, H2, H3, Hd.
    apply lex_digit_clean; auto. lia.
  Qed.

  Lemma is_ident_char_false_cases c :
    is_ident_char is_uspace c = false -> stop_space c = true ->
    (c =? ch_eq) = false -> (c =? ch_dot) = false -> (c =? ch_amp) = false -> (c =? ch_bar) = false ->
    existsb (N.eqb c) single_tokens = false -> c = 0.
  Proof.
    unfold is_ident_char, stop_space. intros H Hs E1 E2 E3 E4 E5.
    apply negb_false_iff in H.
    repeat (apply orb_prop in H as [H|H]); try (apply N.eqb_eq in H; subst c; discriminate).
    - rewrite H in Hs. apply N.eqb_eq in Hs. subst c. discriminate.
    - apply N.eqb_eq in H. exact H.
  Qed.

  Lemma advance_step_clean fuel l :
    hist (rd l) = [] -> (phi (rd l) + 3 < fuel)%nat -> step_post (phi (rd l)) (advance_step is_uspace is_udigit V fuel l).
  Proof.
    intros Hh0 Hf. unfold advance_step.
    destruct (skip_space_ok fuel l) as (l1 & -> & c & r & -> & Hstop & Hc & Hu & Hh & HB); [lia|].
    specialize (Hh Hh0). rewrite (read_after_unread r Hu), Hc.
    set (B := phi (rd l)) in *. clearbody B. clear Hh0.
    destruct (N.eq_dec c 0) as [-> | Hz].
    { (* rune 0 is the end of input, or a NUL inside the text, which is skipped *)
      cbn. rewrite Hdg0, is_ident_char_0, Hfix_nul. cbn [andb].
      destruct (rd_eof r) eqn:Ee; cbn [negb step_post rd set_rd]; [exact Ee|]. split; [exact Hh|].
      specialize (HB (or_intror eq_refl)). pose proof (w_cur_bounds 0). lia. }
    specialize (HB (or_introl Hz)). rewrite (w_cur_nz c Hz) in HB.
    (* c has cost two units.  Every branch ends on a reader that Reads, a loop and at most one last push-back lead to
       from r: such a reader is below B, and within the fuel for a loop that starts there *)
    assert (Hreach : forall r', loop_post r r' -> hist r' = [] /\ (phi r' < B)%nat)
      by (intros r' (Hp & _ & Hh'); split; [auto|lia]).
    assert (Hfuel : forall r', loop_post r r' -> (phi r' < fuel)%nat) by (intros r' Hr; apply Hreach in Hr; lia).
    (* '<' '>' *)
    destruct ((c =? ch_lt) || (c =? ch_gt)).
    { destruct (to_space_eat_ok fuel [c] (is_space l1) r) as (s & sp & r' & -> & Hr'); eauto with reach. }
    (* '=' *)
    destruct (c =? ch_eq) eqn:E2.
    { destruct (rd_read r) as [n r1] eqn:R1.
      destruct (n =? ch_gt); [eauto with reach|].
      destruct (negb (n =? ch_eq)); [eauto with reach|].
      destruct (rd_read r1) as [n2 r2] eqn:R2.
      destruct (negb (n2 =? ch_eq)); eauto with reach. }
    (* '.' *)
    destruct (c =? ch_dot) eqn:E3.
    { destruct (rd_read r) as [n r1] eqn:R1.
      destruct (n =? ch_dot).
      - destruct (rd_read r1) as [n2 r2] eqn:R2. destruct (n2 =? ch_dot); eauto with reach.
      - apply tok_post; [eauto with reach|]. apply rune_wf. right. apply N.eqb_eq; exact E3. }
    (* '%' *)
    destruct (c =? ch_pct).
    { destruct (rd_read r) as [n r1] eqn:R1.
      destruct (_ || (n =? 120)); [eauto with reach|].
      destruct (to_space_eat_ok fuel [c] (is_space l1) (rd_unread r1)) as (s & sp & r' & -> & Hr'); eauto with reach. }
    (* '!' '+' '-' '/' *)
    destruct ((c =? ch_bang) || (c =? ch_plus) || (c =? ch_minus) || (c =? ch_slash)).
    { destruct (rd_read r) as [n r1] eqn:R1. destruct (read_any _ _ _ R1) as (Hh1 & Hp1 & _ & Hc1 & Hu1).
      specialize (Hh1 Hh).
      (* the second rune stays read or is pushed back *)
      destruct (if n =? ch_eq then _ else _) as [buf r2] eqn:Eb.
      assert (Hr2 : r2 = r1 \/ r2 = rd_unread r1).
      { revert Eb. destruct (n =? ch_eq); [|destruct ((c =? ch_minus) && (n =? ch_gt))]; intros [= _ <-]; auto. }
      destruct (((c =? ch_plus) || (c =? ch_minus)) && is_udigit n) eqn:Ed.
      - apply andb_true_iff in Ed as [_ Ed]. destruct Hr2 as [-> | ->].
        + destruct (lex_digit_clean fuel [] l1 r1 B Hh1 Hu1) as (l' & -> & Hp); [lia|lia|exact Hp].
        + destruct (lex_digit_entry fuel l1 r1 B Hh1 Hu1) as (l' & -> & Hp); [rewrite Hc1; exact Ed|lia|lia|exact Hp].
      - destruct (_ && negb (n =? ch_eq)).
        + cbn [step_post rd set_rd]. destruct Hr2 as [-> | ->]; eauto with reach.
        + destruct Hr2 as [-> | ->]; eauto with reach. }
    (* '&' *)
    destruct (c =? ch_amp) eqn:E6.
    { destruct (rd_read r) as [n r1] eqn:R1.
      destruct ((n =? ch_dot) || (n =? ch_amp)); [eauto with reach|].
      destruct (to_nonident_eat_ok fuel [c] (is_space l1) (rd_unread r1)) as (s & sp & r' & -> & Hr'); eauto with reach. }
    (* '|' *)
    destruct (c =? ch_bar) eqn:E7.
    { destruct (rd_read r) as [n r1] eqn:R1.
      destruct (n =? ch_bar).
      - destruct (rd_read r1) as [n2 r2] eqn:R2. destruct (n2 =? ch_eq); eauto with reach.
      - (* the rune pushed back is read again *)
        destruct (rd_read (rd_unread r1)) as [n2 r2] eqn:R2. destruct (n2 =? ch_eq); eauto 6 with reach. }
    (* single-rune tokens *)
    destruct (existsb (N.eqb c) single_tokens) eqn:E8.
    { apply tok_post; [eauto with reach|]. apply rune_wf. left. exact E8. }
    (* strings *)
    destruct ((c =? ch_dq) || (c =? ch_sq)).
    { destruct (lex_string_ok fuel c [] r) as (s & r' & -> & Hr'); [eauto with reach|].
      apply tok_post; [auto|apply string_wf]. }
    (* '#' *)
    destruct (c =? ch_hash).
    { destruct (rd_read r) as [n r1] eqn:R1.
      destruct (n =? ch_lc); [eauto with reach|].
      unfold skip_line_comment. cbn [rd set_rd]. destruct (skip_comment_loop_ok fuel [] (rd_unread r1)) as (s & r' & -> & Hr'); cbn [step_post rd]; eauto with reach. }
    (* digits *)
    destruct (is_udigit c) eqn:E11.
    { destruct (lex_digit_entry fuel l1 r B Hh Hu) as (l' & -> & Hp); [rewrite Hc; exact E11|lia|lia|exact Hp]. }
    (* identifiers *)
    destruct (is_ident_char is_uspace c) eqn:E12.
    { destruct fuel as [|f]; [lia|]. cbn [lex_ident]. rewrite (read_after_unread r Hu), Hc, E2, andb_false_r, E12.
      destruct (lex_ident_ok f c [c] r) as (s & r' & -> & Hr'); [lia|].
      apply tok_post; [auto|]. destruct (list_N_eqb s [110; 105; 108]); auto using name_wf. }
    (* every rune but 0 has been dealt with *)
    contradiction Hz. apply is_ident_char_false_cases; auto.
  Qed.

  (* the Advance that follows lexDigit's push-back delivers the '.' (or '..' / '...') token *)
  Lemma advance_step_pushed fuel l n :
    hist (rd l) = [ch_dot; n] -> ungot (rd l) = false ->
    (phi (rd l) + 3 < fuel)%nat -> step_post (phi (rd l)) (advance_step is_uspace is_udigit V fuel l).
  Proof.
    intros Hh Hu Hf. destruct fuel as [|f]; [lia|].
    unfold advance_step, skip_space. rewrite (read_hist _ _ _ Hu Hh), Hsp_dot. cbn [skip_space_loop].
    rewrite Hsp_dot. cbn [negb orb rd set_rd]. rewrite read_after_unread by reflexivity. cbn [cur].
    change ((ch_dot =? ch_lt) || (ch_dot =? ch_gt)) with false.
    change (ch_dot =? ch_eq) with false. change (ch_dot =? ch_dot) with true. cbv iota.
    rewrite (read_hist _ n []) by reflexivity. cbn [rest].
    (* both runes have been read again *)
    set (r2 := Rd (rest (rd l)) false n []).
    assert (HB : (phi r2 + 4 = phi (rd l))%nat) by (unfold phi; rewrite Hh, Hu; cbn; lia).
    destruct (n =? ch_dot).
    - destruct (rd_read r2) as [n2 r3] eqn:R. destruct (read_any _ _ _ R) as (Hh3 & Hp & Hq & _).
      destruct (n2 =? ch_dot); (apply tok_id_post; split; [auto|lia]).
    - pose proof (w_cur_bounds n). apply tok_post; [split; [reflexivity|rewrite phi_unread by reflexivity; cbn [cur r2]; lia]|].
      apply rune_wf. right. reflexivity.
  Qed.

  Theorem advance_ok fuel : forall l, inv (rd l) -> (phi (rd l) + 3 < fuel)%nat ->
    exists b l', advance is_uspace is_udigit V fuel l = Some (b, l') /\ inv (rd l') /\
      (b = true -> (phi (rd l') < phi (rd l))%nat /\ tok_wf l') /\
      (b = false -> rd_eof (rd l') = true).
  Proof.
    induction fuel as [|f IH]; intros l Hi Hf; [lia|]. cbn [advance].
    assert (Hstep : step_post (phi (rd l)) (advance_step is_uspace is_udigit V (S f) l)).
    { destruct Hi as [Hh | (n & Hh & Hu & _)]; [apply advance_step_clean; assumption|].
      eapply advance_step_pushed; eassumption. }
    destruct (advance_step is_uspace is_udigit V (S f) l) as [l'|l'|l'|].
    - destruct Hstep as (H1 & H2 & H3). exists true, l'. split; [reflexivity|]. split; [exact H1|].
      split; [intros _; split; assumption|discriminate].
    - exists false, l'. split; [reflexivity|]. split; [|split; [discriminate|intros _; exact Hstep]].
      left. apply eof_empty in Hstep. apply Hstep.
    - destruct Hstep as (H1 & H2).
      destruct (IH l' (or_introl H1)) as (b & l2 & Ha & Hi2 & Ht & Hf2); [lia|].
      exists b, l2. split; [exact Ha|]. split; [exact Hi2|]. split; [|exact Hf2].
      intros Hb. destruct (Ht Hb) as [Hlt Hwf]. split; [lia|exact Hwf].
    - contradiction.
  Qed.

End Lex.
