(* elsif chains of single tests (x.nil? / x.is_a?(C), plain or negated), on the same or on different variables:
   what every branch and the else branch see (Model/Narrow.v, chain) *)
From RT Require Import Model.Narrow Proofs.NarrowP.

(* the classes the tests of ts have taken from y *)
Definition taken (ts : list test) (y : string) : list cls := map t_cls (filter (fun t => String.eqb y (t_var t)) ts).
Definition all_pos (ts : list test) : bool := forallb (fun t => negb (t_neg t)) ts.

(* what narrowTs holds for y after the tests of pre *)
Definition excluded (e0 : env) (pre : list test) (y : string) : list cls :=
  fold_left (fun ex t => if String.eqb y (t_var t) then exclude KIf t (ty_of e0 y) ex else ex) pre [].

Lemma excluded_snoc e0 pre t y :
  excluded e0 (pre ++ [t]) y =
  if String.eqb y (t_var t) then exclude KIf t (ty_of e0 y) (excluded e0 pre y) else excluded e0 pre y.
Proof. unfold excluded. rewrite fold_left_app. reflexivity. Qed.

(* plain tests only add their classes *)
Lemma excluded_pos e0 pre y : all_pos pre = true -> excluded e0 pre y = taken pre y.
Proof.
  unfold all_pos, taken. induction pre as [|t pre IH] using rev_ind; [reflexivity|].
  rewrite forallb_app, excluded_snoc, filter_app, map_app. cbn [forallb filter]. unfold exclude, positive.
  intros H. apply Bool.andb_true_iff in H as [H1 H2]. rewrite Bool.andb_true_r in H2.
  rewrite H2, (IH H1). destruct (String.eqb y (t_var t)); [reflexivity | symmetry; apply app_nil_r].
Qed.

(* the running state after the tests of pre *)
Record Inv (e0 : env) (pre : list test) (st : nrun) : Prop := {
  inv_faithful : Faithful e0 st;
  inv_narrow : forall y, lst (narrow (snd (fst st))) y = excluded e0 pre y;
  inv_keys : forall y, aget (orig (snd (fst st))) y = None -> excluded e0 pre y = [] }.

Lemma inv_start e : Inv e [] (e, empty_state, []).
Proof. split; [apply faithful_start | reflexivity | reflexivity]. Qed.

(* what the earlier branches have left of every variable: the else branch, or the next condition, starts from it *)
Lemma inv_narrowing {e0 pre e s zs} : Inv e0 pre (e, s, zs) ->
  forall y, ty_of (narrowing e s) y = minus (ty_of e0 y) (excluded e0 pre y).
Proof.
  intros [F Hn Hk] y. cbn [fst snd] in *. destruct (aget (orig s) y) eqn:E.
  - rewrite <- Hn. apply (faithful_sees y F). congruence.
  - rewrite narrowing_other, (Hk y E), minus_nil by exact E. exact (proj2 (proj2 F) y E).
Qed.

(* the branch of test t after the tests of pre, for every variable *)
Definition Sees (e0 : env) (pre : list test) (t : test) (b : env) : Prop :=
  forall y, ty_of b y = let left := minus (ty_of e0 y) (excluded e0 pre y) in
                        if String.eqb y (t_var t) then admit_then KIf t left else left.

Lemma elsif_step_sees {e0 pre st} t : Inv e0 pre st ->
  Inv e0 (pre ++ [t]) (elsif_step true [t] st) /\ Sees e0 pre t (fst (fst (elsif_step true [t] st))).
Proof.
  destruct st as [[e s] zs]. intros I. pose proof (inv_narrowing I) as HN. destruct I as [F Hn Hk]. cbn [fst snd] in *.
  pose proof (faithful_state (reset_ifn s) eq_refl (faithful_narrowing F)) as F'.
  unfold elsif_step. destruct (get_backup KIf [t] (narrowing e s) (reset_ifn s)) as [[e2 s2] zs2] eqn:E. cbn [fst snd].
  pose proof (faithful_get_backup E F') as F2. destruct (get_backup_scan E) as (s1 & Es & Eo & En).
  (* one test: the scan is setConditionalCtx *)
  apply (f_equal fst) in Es. cbn [scan fst List.length Nat.ltb Nat.leb] in Es, En.
  destruct (set_ctx_own Es (faithful_state _ eq_refl F') eq_refl) as (H1 & H2 & H3).
  pose proof (fun y => set_ctx_other y Es) as V.
  rewrite Hn in H1, H3.
  split; [split; cbn [fst snd]|]; [exact F2 | rewrite En | rewrite Eo |]; intros y.
  - rewrite excluded_snoc. destruct (String.eqb_spec y (t_var t)) as [->|N]; [exact H3|].
    injection (V y N) as _ _ -> _ _. apply Hn.
  - rewrite excluded_snoc. destruct (String.eqb_spec y (t_var t)) as [->|N]; [contradiction|].
    injection (V y N) as _ -> _ _ _. apply Hk.
  - destruct (String.eqb_spec y (t_var t)) as [->|N]; [exact H1|].
    injection (V y N) as -> _ _ _ _. apply HN.
Qed.

Fixpoint branches_see (e0 : env) (pre ts : list test) (brs : list env) : Prop :=
  match ts, brs with
  | [], [] => True
  | t :: r, b :: br => Sees e0 pre t b /\ branches_see e0 (pre ++ [t]) r br
  | _, _ => False
  end.

Lemma chain_from_sees {e0} ts : forall {pre st acc brs st'},
  chain_from true (map (fun t => [t]) ts) st acc = (brs, st') -> Inv e0 pre st ->
  exists brs', brs = acc ++ brs' /\ branches_see e0 pre ts brs' /\ Inv e0 (pre ++ ts) st'.
Proof.
  induction ts as [|t r IH]; intros pre st acc brs st'.
  - intros [= <- <-] I. exists []. rewrite !app_nil_r. split; [reflexivity|]. split; [exact Logic.I | exact I].
  - intros E I. destruct (elsif_step_sees t I) as [I1 S]. destruct (IH _ _ _ _ _ E I1) as (brs' & -> & B & I2).
    exists (fst (fst (elsif_step true [t] st)) :: brs'). rewrite <- !app_assoc in *.
    split; [reflexivity|]. split; [split; assumption | exact I2].
Qed.

(* `if t0; elsif t1; ...; [else;] end`, every test of either polarity, on any variables: what each branch sees of
   every variable, and the else branch *)
Theorem elsif_chain_sees t0 ts he e :
  exists brs ee ea, chain true [t0] (map (fun t => [t]) ts) he e = (brs, ee, ea) /\
    branches_see e [] (t0 :: ts) brs /\
    (he = true -> exists b, ee = Some b /\ forall y, ty_of b y = minus (ty_of e y) (excluded e (t0 :: ts) y)).
Proof.
  unfold chain. rewrite chain_from_if. destruct (chain_from true _ _ _) as [brs [[e1 s1] zs]] eqn:E.
  destruct (chain_from_sees (t0 :: ts) E (inv_start e)) as (brs' & -> & B & I).
  eexists _, _, _. split; [reflexivity|]. split; [exact B|].
  intros ->. eexists. split; [reflexivity|]. exact (inv_narrowing I).
Qed.

(* branch of test t after the tests of pre: the tested variable is exactly the tested class, every other variable
   has lost what the earlier branches took from it *)
Definition BranchOK (e0 : env) (pre : list test) (t : test) (b : env) : Prop :=
  ty_of b (t_var t) = [t_cls t] /\ forall y, y <> t_var t -> ty_of b y = minus (ty_of e0 y) (taken pre y).

Fixpoint branches_ok (e0 : env) (pre ts : list test) (brs : list env) : Prop :=
  match ts, brs with
  | [], [] => True
  | t :: r, b :: br => BranchOK e0 pre t b /\ branches_ok e0 (pre ++ [t]) r br
  | _, _ => False
  end.

Lemma sees_ok e0 ts : forall pre brs, all_pos pre = true -> all_pos ts = true ->
  branches_see e0 pre ts brs -> branches_ok e0 pre ts brs.
Proof.
  induction ts as [|t r IH]; intros pre [|b br] Hp Ht; cbn [branches_see branches_ok]; try exact (fun H => H).
  cbn [all_pos forallb] in Ht. apply Bool.andb_true_iff in Ht as [Ht Hr]. intros [S B]. split.
  - split.
    + rewrite (S (t_var t)), String.eqb_refl. unfold admit_then, positive. rewrite Ht. reflexivity.
    + intros y N. rewrite (S y), (proj2 (String.eqb_neq _ _) N), (excluded_pos _ _ _ Hp). reflexivity.
  - apply IH; [|exact Hr | exact B]. unfold all_pos in *. rewrite forallb_app, Hp. cbn. rewrite Ht. reflexivity.
Qed.
