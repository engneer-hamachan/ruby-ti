(* C22: the two-flag implementation with deferred calls computes Ruby's section rule *)
From RT Require Import Model.Visibility.

(* the flags that occur: at most one is set *)
Definition wf (f : flags) : Prop := f_priv f && f_prot f = false.
Definition vis_flags (v : vis) : flags :=
  match v with Public => {| f_priv := false; f_prot := false |} | Private => {| f_priv := true; f_prot := false |}
             | Protected => {| f_priv := false; f_prot := true |} end.
Lemma tag_vis_flags v : tag_of (vis_flags v) = v. Proof. destruct v; reflexivity. Qed.
Lemma flags_of_tag f : wf f -> vis_flags (tag_of f) = f.
Proof. destruct f as [[|] [|]]; unfold wf; intros H; try discriminate; reflexivity. Qed.

(* the restoring closure, at the bottom of the stack, has the last word *)
Lemma run_defers_restore ds saved f : run_defers (ds ++ [DRestore saved]) f = saved.
Proof. unfold run_defers. rewrite fold_left_app. reflexivity. Qed.

(* start_private f, start_protected f and end_protected (end_private f) compute to vis_flags Private, Protected and
   Public whatever f is: the induction hypotheses below apply up to that computation *)
Lemma singleton_loop_spec body : forall v ds,
  exists f' ds', singleton_loop body (vis_flags v) ds = (ruby_singleton body v, f', ds' ++ ds).
Proof.
  induction body as [|i r IH]; intros v ds; cbn [singleton_loop ruby_singleton]; [exists (vis_flags v), []; reflexivity|].
  destruct i as [| | |n|n].
  - destruct (IH Private (DEndPrivate :: ds)) as (f' & ds' & E). exists f', (ds' ++ [DEndPrivate]). rewrite <- app_assoc. exact E.
  - destruct (IH Protected (DEndProtected :: ds)) as (f' & ds' & E). exists f', (ds' ++ [DEndProtected]). rewrite <- app_assoc. exact E.
  - exact (IH Public ds).
  - destruct (IH v ds) as (f' & ds' & E). exists f', ds'. rewrite E, tag_vis_flags. reflexivity.
  - destruct (IH v ds) as (f' & ds' & E). exists f', ds'. rewrite E. reflexivity.
Qed.

(* a `class << self` body leaves the flags it found, whatever they are *)
Lemma singleton_section_spec body f : singleton_section body f = (ruby_singleton body Public, f).
Proof.
  unfold singleton_section. destruct (singleton_loop_spec body Public [DRestore f]) as (f' & ds' & E).
  change (end_protected (end_private f)) with (vis_flags Public). rewrite E, run_defers_restore. reflexivity.
Qed.

Lemma class_loop_spec items : forall v, class_loop items (vis_flags v) = ruby_class items v.
Proof.
  induction items as [|i r IH]; intros v; cbn [class_loop ruby_class]; [reflexivity|].
  destruct i as [| | |n|n|body|n|ns].
  - exact (IH Private).
  - exact (IH Protected).
  - exact (IH Public).
  - rewrite tag_vis_flags, IH. reflexivity.
  - rewrite IH. reflexivity.
  - rewrite singleton_section_spec, IH. reflexivity.
  - rewrite IH. reflexivity.
  - apply IH.
Qed.
