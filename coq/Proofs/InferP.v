(* C09: a lookup with a literal key returns the stored value type; the union of scalars is their distinct kinds.
   Also: what T.AppendVariant and T.UnifyVariants (Model/TyOps.v) do to scalar types, for the proofs about propagation and
   block parameters *)
From RT Require Import Model.Infer.

Lemma t_vars_set_vars t v : t_vars (set_vars t v) = v. Proof. destruct t; reflexivity. Qed.

Lemma find_replace vs kv k :
  find (fun v => String.eqb (t_key v) k) (replace_or_append_key vs kv) =
  if String.eqb (t_key kv) k then Some kv else find (fun v => String.eqb (t_key v) k) vs.
Proof.
  induction vs as [|x r IH]; cbn [replace_or_append_key find].
  - reflexivity.
  - destruct (String.eqb_spec (t_key x) (t_key kv)) as [E|N]; cbn [find].
    + rewrite E. destruct (String.eqb (t_key kv) k); reflexivity.
    + destruct (String.eqb_spec (t_key x) k) as [E2|N2].
      * destruct (String.eqb_spec (t_key kv) k) as [E3|N3]; [congruence | reflexivity].
      * exact IH.
Qed.

(* the keys present in a hash built from pairs, and what each lookup finds *)
Lemma hash_of_find pairs k : forall h,
  find (fun v => String.eqb (t_key v) k)
       (t_vars (fold_left (fun h kv => append_hash_variant h (MakeKeyValue (fst kv) (snd kv))) pairs h)) =
  match last_value pairs k with
  | Some v => Some (MakeKeyValue k v)
  | None => find (fun v => String.eqb (t_key v) k) (t_vars h)
  end.
Proof.
  induction pairs as [|[k' v] r IH]; intros h; cbn [fold_left last_value]; [reflexivity|].
  rewrite IH. destruct (last_value r k) as [w|]; [reflexivity|].
  unfold append_hash_variant. rewrite t_vars_set_vars, find_replace. cbn [fst snd t_key MakeKeyValue].
  destruct (String.eqb_spec k' k) as [->|N]; reflexivity.
Qed.

(* C09: h[<literal key>] is the type stored last under that key — whatever that type is, NilClass included *)
Theorem hash_lookup_stored pairs k v : last_value pairs k = Some v -> hash_reference (hash_of pairs) k = v.
Proof. intros H. unfold hash_reference, hash_of. rewrite hash_of_find, H. reflexivity. Qed.

(* ... and a key that was never written gives the union of the values *)
Theorem hash_lookup_missing pairs k : last_value pairs k = None ->
  hash_reference (hash_of pairs) k = UnifyVariants (hash_of pairs).
Proof. intros H. unfold hash_reference. unfold hash_of at 1. rewrite hash_of_find, H. reflexivity. Qed.

Lemma scalar_not_union t : scalar t = true -> is_union_type t = false.
Proof. unfold scalar, is_union_type. destruct (tag_is UNION t); [discriminate | reflexivity]. Qed.

Lemma scalar_vars t : scalar t = true -> t_vars t = [].
Proof. unfold scalar. destruct (t_vars t); [reflexivity | rewrite andb_false_r; discriminate]. Qed.

Lemma same_kind_refl a : same_kind a a = true.
Proof. unfold same_kind, tag_eqb. rewrite Z.eqb_refl. apply String.eqb_refl. Qed.

Lemma fuel_SS t v : exists n, fuel_for t v = S (S n).
Proof. exists (2 * (ty_size t + ty_size v) + 2). unfold fuel_for. lia. Qed.

(* T.IsEqualObject on a union and a scalar: some variant has the scalar's tag and class *)
Lemma is_equal_object_union t v : is_union_type t = true -> scalar v = true ->
  is_equal_object t v = existsb (fun s => same_kind s v) (t_vars t).
Proof.
  intros Ht Hv. unfold is_equal_object. destruct (t_vars t); [|reflexivity].
  rewrite (scalar_vars v Hv). apply scalar_not_union in Hv. unfold is_union_type, tag_is, tag_eqb in *.
  apply Z.eqb_eq in Ht. rewrite Ht, Z.eqb_sym. exact Hv.
Qed.

Lemma append_scalar n t v : is_union_type t = true -> scalar v = true ->
  append_variant (S n) t v = if existsb (fun s => same_kind s v) (t_vars t) then t else set_vars t (t_vars t ++ [v]).
Proof.
  intros Ht Hv. rewrite <- (is_equal_object_union t v Ht Hv). unfold scalar, tag_is in Hv.
  cbn [append_variant]. destruct (t_tag v); try reflexivity; discriminate.
Qed.

Lemma AppendVariant_scalar t v : is_union_type t = true -> scalar v = true ->
  AppendVariant t v = if existsb (fun s => same_kind s v) (t_vars t) then t else set_vars t (t_vars t ++ [v]).
Proof. unfold AppendVariant. destruct (fuel_SS t v) as [n ->]. apply append_scalar. Qed.

(* the union of scalar types: one variant per distinct (tag, class), in order of first occurrence *)
Theorem union_of_scalars n es : forall seen, forallb scalar es = true ->
  fold_left (fun acc v => append_variant (S n) acc v) es (MakeUnion seen) = MakeUnion (seen ++ distinct_kinds seen es).
Proof.
  induction es as [|v r IH]; intros seen H; cbn [fold_left distinct_kinds]; [rewrite app_nil_r; reflexivity|].
  cbn [forallb] in H. apply andb_true_iff in H as [Hv Hr].
  rewrite (append_scalar n (MakeUnion seen) v eq_refl Hv). change (t_vars (MakeUnion seen)) with seen.
  destruct (existsb (fun s => same_kind s v) seen).
  - apply IH; exact Hr.
  - rewrite IH, <- app_assoc by exact Hr. reflexivity.
Qed.

(* T.UnifyVariants: the variants (of a hash: their values) are appended one by one to an empty union; one or none left is
   no union, and of two an Unknown gives way *)
Lemma unify_variants_S n t : unify_variants (S n) t =
  let u := fold_left (fun acc v => append_variant n acc (if is_hash_type t then get_key_value v else v)) (t_vars t) (MakeUnion []) in
  match t_vars u with
  | [] => MakeUntyped
  | [x] => x
  | [a; b] =>
      let last_known := if is_unknown_type b then (if is_unknown_type a then nil_ptr else a) else b in
      if negb (is_unknown_type last_known) && (is_unknown_type a || is_unknown_type b) then last_known else u
  | _ => u
  end.
Proof. reflexivity. Qed.

Lemma UnifyVariants_pair x a : scalar x = true -> scalar a = true -> tag_is UNKNOWN x = false -> tag_is UNKNOWN a = false ->
  same_kind x a = false -> UnifyVariants (MakeUnion [x; a]) = MakeUnion [x; a].
Proof.
  intros Hx Ha Ux Ua Hk. unfold UnifyVariants. destruct (fuel_SS (MakeUnion [x; a]) (MakeUnion [x; a])) as [n ->]. rewrite unify_variants_S.
  change (is_hash_type (MakeUnion [x; a])) with false. change (t_vars (MakeUnion [x; a])) with [x; a]. cbv beta iota zeta.
  rewrite (union_of_scalars n [x; a] []) by (cbn [forallb]; rewrite Hx, Ha; reflexivity).
  cbn [distinct_kinds existsb app]. rewrite Hk. cbn [orb app].
  change (t_vars (MakeUnion [x; a])) with [x; a]. unfold is_unknown_type. rewrite Ux, Ua, !andb_false_r. reflexivity.
Qed.

Lemma append_to_empty n x : is_union_type x = false -> append_variant (S n) (MakeUnion []) x = MakeUnion [x].
Proof.
  intros Hx.
  assert (Q : is_equal_object (MakeUnion []) x = false).
  { unfold is_equal_object. change (t_vars (MakeUnion [])) with (@nil ty). destruct (t_vars x); [|reflexivity].
    unfold is_union_type, tag_is, tag_eqb in *. rewrite Z.eqb_sym. exact Hx. }
  unfold is_union_type, tag_is in Hx. cbn [append_variant]. rewrite Q. destruct (t_tag x); try reflexivity. discriminate Hx.
Qed.

(* ... so a single variant that is not a union is the result *)
Lemma UnifyVariants_single t x : is_hash_type t = false -> t_vars t = [x] -> is_union_type x = false -> UnifyVariants t = x.
Proof.
  intros Hh Hv Hx. unfold UnifyVariants. destruct (fuel_SS t t) as [n ->]. rewrite unify_variants_S, Hh, Hv. cbn [fold_left].
  rewrite (append_to_empty n x Hx). reflexivity.
Qed.

(* C15: the union built from the argument types of all call sites covers each of them *)
Lemma distinct_kinds_covers l : forall seen a, In a l ->
  exists v, In v (seen ++ distinct_kinds seen l) /\ same_kind v a = true.
Proof.
  induction l as [|x r IH]; intros seen a H; [destruct H|]. cbn [distinct_kinds].
  destruct H as [->|H].
  - destruct (existsb (fun s => same_kind s a) seen) eqn:E.
    + apply existsb_exists in E as [v [Hv Hk]]. exists v. split; [apply in_or_app; left; exact Hv | exact Hk].
    + exists a. split; [apply in_or_app; right; left; reflexivity | apply same_kind_refl].
  - destruct (existsb (fun s => same_kind s x) seen).
    + exact (IH seen a H).
    + destruct (IH (seen ++ [x]) a H) as [v [Hv Hk]]. exists v. split; [|exact Hk].
      rewrite <- app_assoc in Hv. exact Hv.
Qed.

Theorem parameter_union_covers n args a : forallb scalar args = true -> In a args ->
  exists v, In v (t_vars (fold_left (fun acc v => append_variant (S n) acc v) args (MakeUnion []))) /\ same_kind v a = true.
Proof.
  intros Hs Ha. rewrite (union_of_scalars n args [] Hs). exact (distinct_kinds_covers args [] a Ha).
Qed.
