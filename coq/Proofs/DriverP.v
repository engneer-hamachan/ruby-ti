(* C01 / C02 / C18 on the driver skeleton: whatever the evaluator does short of a Go fatal error *)
From RT Require Import Model.Driver.

Lemma no_eol_escape s : no_eol (escape_msg s) = true.
Proof.
  induction s as [|c r IH]; cbn [escape_msg no_eol]; [reflexivity|].
  destruct (Ascii.eqb c (ascii_of_nat 10)) eqn:E1; [exact IH|].
  destruct (Ascii.eqb c (ascii_of_nat 13)) eqn:E2; [exact IH|].
  cbn [no_eol]. unfold is_eol. rewrite E1, E2. exact IH.
Qed.

(* what one step adds to the two output lists *)
Definition step_errors (cr : bool) (file : string) (st : step) : list line :=
  match fatal_msg (st_out st) with
  | Some m => if cr then [LDiag file (st_row st) m] else []
  | None => []
  end.
Definition step_infos (file : string) (st : step) : list line :=
  map (fun ri => LInfo file (fst ri) (snd ri)) (st_infos st).

(* the loop appends what its steps add, in order, and counts them; every other fact about it is read off here *)
Lemma eval_loop_eq cr file s : forall acc,
  eval_loop cr file s acc =
  {| po_errors := po_errors acc ++ flat_map (step_errors cr file) s;
     po_infos := po_infos acc ++ flat_map (step_infos file) s;
     po_iterations := po_iterations acc + List.length s |}.
Proof.
  induction s as [|st r IH]; intros acc; cbn [eval_loop flat_map List.length].
  - rewrite !app_nil_r, Nat.add_0_r. destruct acc; reflexivity.
  - rewrite IH. cbn [po_errors po_infos po_iterations]. rewrite <- !app_assoc, Nat.add_succ_r. reflexivity.
Qed.

Definition diag_ok (file : string) (l : line) : Prop :=
  match l with LDiag f _ m => f = file /\ no_eol m = true | LInfo _ _ _ => False end.

Lemma step_errors_ok cr file st : Forall (diag_ok file) (step_errors cr file st).
Proof.
  unfold step_errors.
  destruct (st_out st); destruct cr; repeat constructor; apply no_eol_escape.
Qed.

Lemma eval_loop_errors cr file s : forall acc,
  Forall (diag_ok file) (po_errors acc) -> Forall (diag_ok file) (po_errors (eval_loop cr file s acc)).
Proof.
  intros acc H. rewrite eval_loop_eq. apply Forall_app. split; [exact H|].
  apply Forall_flat_map, Forall_forall. intros st _. apply step_errors_ok.
Qed.

Lemma eval_loop_no_errors_outside_check file s : forall acc,
  po_errors (eval_loop false file s acc) = po_errors acc.
Proof.
  intros acc. rewrite eval_loop_eq.
  enough (E : flat_map (step_errors false file) s = []) by (rewrite E; apply app_nil_r).
  induction s as [|st r IH]; cbn [flat_map]; [reflexivity|]. rewrite IH. unfold step_errors.
  destruct (fatal_msg (st_out st)); reflexivity.
Qed.

(* eval.DefineInfoArticles as setDefineInfos prints them: the definitions recorded for the target file *)
Definition defs_of (tfile : string) (arts : list article) : list line :=
  map (fun a => LInfo tfile (snd (fst a)) (snd a)) (filter (fun a => String.eqb (fst (fst a)) tfile) arts).

(* C18 (driver part): what is printed is a function of the target's check-round steps and of the definitions
   recorded for the target file; no preloaded file and no other round enters *)
Theorem run_driver_lines fl preloads tfile tsrc articles :
  fst (fst (run_driver fl preloads (tfile, tsrc) articles)) =
  (if fl_define_info fl then flat_map (step_infos tfile) (tsrc "check") ++ defs_of tfile articles else [])
  ++ flat_map (step_errors true tfile) (tsrc "check").
Proof. unfold run_driver. rewrite eval_loop_eq. reflexivity. Qed.

(* C01, line by line: a printed line names the target file, and a diagnostic is a single line — for every
   evaluator behaviour, panics included, with or without -i *)
Definition line_ok (file : string) (l : line) : Prop :=
  line_file l = file /\ match l with LDiag _ _ m => no_eol m = true | LInfo _ _ _ => True end.

Lemma diag_line_ok file l : diag_ok file l -> line_ok file l.
Proof. destruct l; [exact (fun H => H)|intros []]. Qed.

Theorem printed_ok fl preloads tfile tsrc articles :
  Forall (line_ok tfile) (fst (fst (run_driver fl preloads (tfile, tsrc) articles))).
Proof.
  rewrite run_driver_lines. apply Forall_app. split.
  - (* hints and definitions are built as LInfo tfile _ _ *)
    destruct (fl_define_info fl); [|constructor]. apply Forall_app. split.
    + apply Forall_flat_map, Forall_forall. intros st _. apply Forall_map, Forall_forall. intros ri _. exact (conj eq_refl I).
    + apply Forall_map, Forall_forall. intros a _. exact (conj eq_refl I).
  - apply Forall_flat_map, Forall_forall. intros st _. eapply Forall_impl; [apply diag_line_ok|apply step_errors_ok].
Qed.

Lemma defs_of_foreign tfile arts extra :
  Forall (fun a => fst (fst a) <> tfile) extra -> defs_of tfile (arts ++ extra) = defs_of tfile arts.
Proof.
  intros H. unfold defs_of. rewrite filter_app.
  replace (filter _ extra) with (@nil article); [rewrite app_nil_r; reflexivity|].
  induction H as [|a r Ha _ IH]; cbn [filter]; [reflexivity|]. apply String.eqb_neq in Ha. rewrite Ha. exact IH.
Qed.

(* C18, rows rebased: analysing the target after a k-line prefix moves every row of its steps and of its recorded
   definitions by k; shift_line is what that does to a printed line *)
Local Open Scope Z_scope.
Definition shift_step (k : Z) (st : step) : step :=
  {| st_row := st_row st + k; st_out := st_out st; st_infos := map (fun ri => (fst ri + k, snd ri)) (st_infos st) |}.
Definition shift_line (k : Z) (l : line) : line :=
  match l with LDiag f r m => LDiag f (r + k) m | LInfo f r t => LInfo f (r + k) t end.
Definition shift_src (k : Z) (s : source) : source := fun r => map (shift_step k) (s r).
Definition shift_article (k : Z) (tfile : string) (a : article) : article :=
  if String.eqb (fst (fst a)) tfile then (fst (fst a), snd (fst a) + k, snd a) else a.

Lemma flat_map_maps {A B} (g : A -> A) (h : B -> B) (f : A -> list B) l :
  (forall x, f (g x) = map h (f x)) -> flat_map f (map g l) = map h (flat_map f l).
Proof. intros H. induction l as [|x r IH]; cbn [map flat_map]; [reflexivity|]. rewrite map_app, H, IH. reflexivity. Qed.

Lemma defs_shift k tfile arts :
  defs_of tfile (map (shift_article k tfile) arts) = map (shift_line k) (defs_of tfile arts).
Proof.
  unfold defs_of. induction arts as [|a r IH]; cbn [map filter]; [reflexivity|].
  unfold shift_article at 1 2. destruct (String.eqb (fst (fst a)) tfile) eqn:E; cbn [fst snd]; rewrite E; [|exact IH].
  cbn [map shift_line]. rewrite IH. reflexivity.
Qed.
