(* A sort is canonical for a total antisymmetric order: any two permutations sort to the same list.
   Go's slices.SortFunc / sort.Slice / sort.Strings enter the models as this insertion sort; any
   function returning a sorted permutation computes the same list (Sorted + Permutation is unique). *)
From Coq Require Import List Permutation.
Import ListNotations.

Record total_order {A : Type} (le : A -> A -> bool) : Prop := {
  to_total : forall a b, le a b = false -> le b a = true;
  to_trans : forall a b c, le a b = true -> le b c = true -> le a c = true;
  to_antisym : forall a b, le a b = true -> le b a = true -> a = b
}.

Section Sort.
  Context {A : Type} (le : A -> A -> bool).

  Fixpoint insert (x : A) (l : list A) : list A :=
    match l with
    | [] => [x]
    | y :: r => if le x y then x :: y :: r else y :: insert x r
    end.
  Definition sort (l : list A) : list A := fold_right insert [] l.
End Sort.

(* Insertions commute, so the sorted list depends on the multiset only.  Antisymmetry is asked of the
   elements at hand, not of the type: Model/Args.v sorts by a key that is injective on the list it sorts. *)
Section Canonical.
  Context {A : Type} (le : A -> A -> bool).
  Hypothesis Htot : forall a b, le a b = false -> le b a = true.
  Hypothesis Htr : forall a b c, le a b = true -> le b c = true -> le a c = true.

  Lemma insert_insert_le x y l : le x y = true -> (le y x = true -> x = y) ->
    insert le x (insert le y l) = insert le y (insert le x l).
  Proof.
    intros Hxy Has. destruct (le y x) eqn:Eyx; [rewrite (Has eq_refl); reflexivity|].
    (* x comes strictly before y *)
    induction l as [|z r IH]; cbn [insert].
    - rewrite Hxy, Eyx. reflexivity.
    - destruct (le y z) eqn:Eyz.
      + rewrite (Htr _ _ _ Hxy Eyz). cbn [insert]. rewrite Hxy, Eyx, Eyz. reflexivity.
      + destruct (le x z) eqn:Exz; cbn [insert]; rewrite Exz, Eyz; [rewrite Eyx; reflexivity | f_equal; exact IH].
  Qed.

  Lemma insert_comm x y l : (le x y = true -> le y x = true -> x = y) ->
    insert le x (insert le y l) = insert le y (insert le x l).
  Proof.
    intros Has. destruct (le x y) eqn:Exy.
    - apply insert_insert_le; auto.
    - symmetry. apply insert_insert_le; [apply Htot; exact Exy | congruence].
  Qed.

  Theorem sort_perm_on l l' : Permutation l l' ->
    (forall x y, In x l -> In y l -> le x y = true -> le y x = true -> x = y) -> sort le l = sort le l'.
  Proof.
    induction 1 as [|x l l' Hp IH|x y l|l l' l'' H1 IH1 H2 IH2]; intros Has; cbn [sort fold_right].
    - reflexivity.
    - f_equal. apply IH. intros a b Ha Hb. apply Has; right; assumption.
    - apply insert_comm. apply Has; cbn; auto.
    - rewrite IH1 by exact Has. apply IH2. intros a b Ha Hb.
      apply Has; apply (Permutation_in _ (Permutation_sym H1)); assumption.
  Qed.
End Canonical.

Theorem sort_perm {A} (le : A -> A -> bool) (Hle : total_order le) l l' : Permutation l l' -> sort le l = sort le l'.
Proof.
  intros Hp. apply sort_perm_on; [exact (to_total _ Hle) | exact (to_trans _ Hle) | exact Hp |].
  intros x y _ _. exact (to_antisym _ Hle x y).
Qed.

(* lexicographic product of two total orders *)
Section Lex.
  Context {A B : Type} (leA : A -> A -> bool) (leB : B -> B -> bool).
  Hypothesis HA : total_order leA.
  Hypothesis HB : total_order leB.

  Definition lex_le (p q : A * B) : bool :=
    if leA (fst p) (fst q) then (if leA (fst q) (fst p) then leB (snd p) (snd q) else true) else false.

  Lemma lex_total_order : total_order lex_le.
  Proof.
    destruct HA as [At Atr Aas]. destruct HB as [Bt Btr Bas].
    split; unfold lex_le.
    - intros [a b] [a' b']; cbn [fst snd]. destruct (leA a a') eqn:E1; destruct (leA a' a) eqn:E2; intros H; try discriminate; try reflexivity.
      + apply Bt; exact H.
      + apply At in E1. congruence.
    - intros [a b] [a' b'] [a'' b'']; cbn [fst snd]. 
      destruct (leA a a') eqn:E1; [|discriminate]. destruct (leA a' a'') eqn:E2; [|intros _ H; discriminate].
      rewrite (Atr _ _ _ E1 E2).
      destruct (leA a'' a) eqn:E5; [|intros; reflexivity].
      rewrite (Atr _ _ _ E5 E1), (Atr _ _ _ E2 E5). intros H1 H2. eapply Btr; eassumption.
    - intros [a b] [a' b']; cbn [fst snd]. destruct (leA a a') eqn:E1; [|discriminate]. destruct (leA a' a) eqn:E2; [|discriminate].
      intros H1 H2. rewrite (Aas _ _ E1 E2), (Bas _ _ H1 H2). reflexivity.
  Qed.
End Lex.

(* an order transported along an injection *)
Section Inj.
  Context {A B : Type} (f : A -> B) (leB : B -> B -> bool).
  Hypothesis Hinj : forall a b, f a = f b -> a = b.
  Hypothesis HB : total_order leB.
  Lemma inj_total_order : total_order (fun a b => leB (f a) (f b)).
  Proof.
    destruct HB as [Bt Btr Bas]. split.
    - intros a b. apply Bt.
    - intros a b c. apply Btr.
    - intros a b H1 H2. apply Hinj. apply Bas; assumption.
  Qed.
End Inj.

Lemma bool_le_order : total_order (fun a b : bool => implb a b).
Proof. split; intros [] []; try intros []; try reflexivity; discriminate. Qed.
