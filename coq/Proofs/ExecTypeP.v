(* calculateExecutionType (Model/ExecType.v): what each special return type resolves to *)
From RT Require Import Model.ExecType.

(* a declared return type is resolved by its tag (the result of `new` aside); ARRAY and UNION resolve their variants,
   with the fuel that is left *)
Lemma ExecType_tag tg recv blk args ret : String.eqb (t_meth ret) "new" = false -> t_tag ret = tg ->
  ExecType recv args blk ret =
  match tg with
  | BLOCK => block_value ret
  | UNION => MakeUnifiedT (map (exec_type (ty_size ret) recv args blk) (t_vars ret))
  | SELF => recv
  | SELF_ARRAY => array_of (t_vars recv)
  | ARGUMENT => match args with [] => MakeNil | [a] => a | _ => array_of args end
  | ARRAY => array_of (map (exec_type (ty_size ret) recv args blk) (t_vars ret))
  | UNIFY => UnifyVariants recv
  | OPTIONAL_UNIFY => MakeUnifiedT (t_vars (AppendVariant recv MakeNil))
  | BLOCK_RESULT_ARRAY => AppendArrayVariant MakeAnyArray (block_value blk)
  | KEYVALUE_ARRAY => array_of (map get_key_value (t_vars recv))
  | _ => ret
  end.
Proof. intros N <-. unfold ExecType. cbn [exec_type]. rewrite N. reflexivity. Qed.

Lemma array_of_MakeArray l : array_of l = MakeArray l.
Proof.
  enough (G : forall acc, fold_left AppendArrayVariant l (MakeArray acc) = MakeArray (acc ++ l)) by exact (G []).
  induction l as [|x l IH]; intros acc; cbn [fold_left]; [rewrite app_nil_r; reflexivity|].
  change (AppendArrayVariant (MakeArray acc) x) with (MakeArray (acc ++ [x])). rewrite IH, <- app_assoc. reflexivity.
Qed.
