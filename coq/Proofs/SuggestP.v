(* Proofs about the completion predicates: termination of the ancestor search on arbitrary (cyclic) inheritance
   maps, and its soundness and completeness with respect to the ancestor relation.  What the search has in common
   with the ancestor walk of method lookup (Model/Lookup.v, LookupCompleteP.v) is stated here once, for both. *)
From RT Require Import Model.Suggest.

Lemma fc_eqb_eq a b : fc_eqb a b = true <-> a = b.
Proof.
  destruct a as [a1 a2], b as [b1 b2]; unfold fc_eqb; cbn [fst snd].
  rewrite Bool.andb_true_iff, !String.eqb_eq. split; [intros [-> ->]; reflexivity | intros H; inversion H; auto].
Qed.
Lemma fc_eqb_refl a : fc_eqb a a = true. Proof. apply fc_eqb_eq; reflexivity. Qed.
Lemma fc_eqb_neq a b : fc_eqb a b = false <-> a <> b.
Proof. rewrite <- fc_eqb_eq. destruct (fc_eqb a b); split; congruence. Qed.

Lemma mem_fc_in n l : mem_fc n l = true <-> In n l.
Proof.
  unfold mem_fc; rewrite existsb_exists; split.
  - intros [x [Hx He]]. apply fc_eqb_eq in He; subst; exact Hx.
  - intros H; exists n; split; [exact H | apply fc_eqb_refl].
Qed.
Lemma mem_fc_false n l : mem_fc n l = false <-> ~ In n l.
Proof. rewrite <- mem_fc_in. symmetry. apply Bool.not_true_iff_false. Qed.

Lemma in_remove_fc x n l : In x (remove_fc n l) <-> In x l /\ x <> n.
Proof.
  induction l as [|y l IH]; cbn [remove_fc In]; [tauto|].
  destruct (fc_eqb n y) eqn:E; cbn [In]; rewrite IH.
  - apply fc_eqb_eq in E. split; [intros [H1 H2]; auto | intros [[H|H] H2]; [congruence | auto]].
  - apply fc_eqb_neq in E. split; [intros [<-|[H1 H2]]; auto | intros [[H|H] H2]; auto].
Qed.
Lemma remove_incl n l : incl (remove_fc n l) l.
Proof. intros x Hx. apply in_remove_fc in Hx. apply Hx. Qed.

Lemma remove_length_le n l : List.length (remove_fc n l) <= List.length l.
Proof.
  induction l as [|y l IH]; cbn [remove_fc length]; [apply le_n|].
  destruct (fc_eqb n y); [apply le_S, IH | apply le_n_S, IH].
Qed.
Lemma remove_length_lt n l : mem_fc n l = true -> List.length (remove_fc n l) < List.length l.
Proof.
  induction l as [|y l IH]; cbn [mem_fc existsb remove_fc length]; [discriminate|].
  destruct (fc_eqb n y); intros H; apply le_n_S; [apply remove_length_le | exact (IH H)].
Qed.

(* The search here and the walk of Model/Lookup.v are depth-first searches that thread the set uv of nodes not yet
   expanded; the rest of this part is about both. *)

(* o is a result, and the set it hands on is no larger than uv: what termination is proved through *)
Definition ends_within {R} (uv : list node) (o : option (R * list node)) : Prop :=
  exists x uv', o = Some (x, uv') /\ List.length uv' <= List.length uv.

Lemma ends_within_refl {R} (x : R) uv : ends_within uv (Some (x, uv)).
Proof. exists x, uv. split; [reflexivity | apply le_n]. Qed.

(* The loop over the parents.  first_true, and first_found of Model/Lookup.v, are first_hit: R is the result of one
   search, hit tells success, miss is the result of a loop in which no search succeeds. *)
Section Loop.
  Context {A R : Type} (hit : R -> bool) (miss : R).
  Implicit Types (step : A -> list node -> option (R * list node)) (ps : list A).

  Fixpoint first_hit step ps (uv : list node) : option (R * list node) :=
    match ps with
    | [] => Some (miss, uv)
    | p :: r => match step p uv with
                | Some (x, uv') => if hit x then Some (x, uv') else first_hit step r uv'
                | None => None
                end
    end.

  Lemma first_hit_total step (f : nat) :
    (forall p uv, List.length uv < f -> ends_within uv (step p uv)) ->
    forall ps uv, List.length uv < f -> ends_within uv (first_hit step ps uv).
  Proof.
    intros Hs ps; induction ps as [|p r IH]; intros uv Hf; cbn [first_hit]; [apply ends_within_refl|].
    destruct (Hs p uv Hf) as (x & uv' & -> & Hl). destruct (hit x); [exists x, uv'; split; [reflexivity | exact Hl]|].
    destruct (IH uv' (Nat.le_lt_trans _ _ _ Hl Hf)) as (y & uv2 & E & Hl2).
    exists y, uv2; split; [exact E | exact (Nat.le_trans _ _ _ Hl2 Hl)].
  Qed.

  Lemma first_hit_result step ps : forall uv x uv', first_hit step ps uv = Some (x, uv') ->
    x = miss \/ exists p uv1, In p ps /\ step p uv1 = Some (x, uv').
  Proof.
    induction ps as [|p r IH]; intros uv x uv'; cbn [first_hit]; [intros [= <- _]; left; reflexivity|].
    destruct (step p uv) as [[y uv1]|] eqn:E; [|discriminate]. destruct (hit y).
    - intros [= <- <-]. right. exists p, uv. split; [left; reflexivity | exact E].
    - intros H. destruct (IH _ _ _ H) as [Hx | (q & u & Hq & Hs)]; [left; exact Hx | right].
      exists q, u. split; [right; exact Hq | exact Hs].
  Qed.

  (* the expansion of a node of the set: the loop over its parents, the searches in it with one unit of fuel less *)
  Lemma expand_total step n uv (f : nat) ps : mem_fc n uv = true -> List.length uv < S f ->
    (forall p u, List.length u < f -> ends_within u (step p u)) ->
    ends_within uv (first_hit step ps (remove_fc n uv)).
  Proof.
    intros Hm Hf Hs.
    destruct (first_hit_total step f Hs ps (remove_fc n uv)) as (x & uv' & E & H).
    - exact (Nat.lt_le_trans _ _ _ (remove_length_lt _ _ Hm) (le_S_n _ _ Hf)).
    - exists x, uv'. split; [exact E | exact (Nat.le_trans _ _ _ H (remove_length_le n uv))].
  Qed.
End Loop.

Lemma first_true_hit {A} (step : A -> list node -> option (bool * list node)) ps :
  forall uv, first_true step ps uv = first_hit (fun b => b) false step ps uv.
Proof.
  induction ps as [|p r IH]; intros uv; cbn [first_true first_hit]; [reflexivity|].
  destruct (step p uv) as [[[|] uv']|]; [reflexivity | apply IH | reflexivity].
Qed.

(* What a search that fails leaves behind. *)
Section Stretch.
  Variable m : inh_map.
  (* P uv' n p: what following the edge p of n without success establishes, stated over the nodes left unexpanded
     at the end *)
  Variable P : list node -> node -> pnode -> Prop.
  Hypothesis P_incl : forall a b n p, incl b a -> P a n p -> P b n p.

  Definition closed (uv' : list node) (n : node) : Prop := forall p, In p (parents_of m n) -> P uv' n p.

  (* a stretch of a search, from uv to uv': the set shrinks, and every node expanded on the way is closed *)
  Definition stretch (uv uv' : list node) : Prop :=
    incl uv' uv /\ forall x, In x uv -> ~ In x uv' -> closed uv' x.

  Lemma stretch_refl uv : stretch uv uv.
  Proof. split; [apply incl_refl | intros x H1 H2; contradiction]. Qed.

  Lemma stretch_trans a b c : stretch a b -> stretch b c -> stretch a c.
  Proof.
    intros [S1 C1] [S2 C2]. split; [exact (incl_tran S2 S1)|].
    intros x Ha Hc. destruct (mem_fc x b) eqn:Hb.
    - apply mem_fc_in in Hb. exact (C2 x Hb Hc).
    - apply mem_fc_false in Hb. intros p Hp. exact (P_incl _ _ _ _ S2 (C1 x Ha Hb p Hp)).
  Qed.

  (* a loop over edges of n in which no search succeeds *)
  Lemma first_hit_miss {R} (hit : R -> bool) miss step n ps :
    (forall p uv x uv', In p ps -> step p uv = Some (x, uv') -> hit x = false -> stretch uv uv' /\ P uv' n p) ->
    forall uv x uv', first_hit hit miss step ps uv = Some (x, uv') -> hit x = false ->
      stretch uv uv' /\ forall p, In p ps -> P uv' n p.
  Proof.
    induction ps as [|p r IH]; intros Hs uv x uv'; cbn [first_hit].
    - intros [= _ <-] _. split; [apply stretch_refl | intros p []].
    - destruct (step p uv) as [[y uv1]|] eqn:E; [|discriminate].
      destruct (hit y) eqn:Hy; [intros [= <- _] Hx; congruence|]. intros H Hx.
      destruct (Hs _ _ _ _ (or_introl eq_refl) E Hy) as [T1 P1].
      destruct (IH (fun q a b c Hq => Hs q a b c (or_intror Hq)) _ _ _ H Hx) as [T2 P2].
      split; [exact (stretch_trans _ _ _ T1 T2)|].
      intros q [<-|Hq]; [exact (P_incl _ _ _ _ (proj1 T2) P1) | exact (P2 q Hq)].
  Qed.

  (* the expansion of n: n leaves the set, its parents are searched, and n is closed over what is left *)
  Lemma stretch_expand n uv uv' : stretch (remove_fc n uv) uv' -> closed uv' n -> stretch uv uv' /\ ~ In n uv'.
  Proof.
    intros [S C] Hq.
    assert (Hn : ~ In n uv') by (intro H; apply S, in_remove_fc in H; exact (proj2 H eq_refl)).
    split; [split|exact Hn].
    - exact (incl_tran S (remove_incl n uv)).
    - intros x Hx Hx'. destruct (fc_eqb x n) eqn:E; [apply fc_eqb_eq in E; subst x; exact Hq|].
      apply fc_eqb_neq in E. apply C; [apply in_remove_fc; split; assumption | exact Hx'].
  Qed.
End Stretch.

Section Search.
  Variables (m : inh_map) (bl : list string) (s : sig).
  Let tgt : node := (s_frame s, s_class s).
  Let search f st := is_parent_class f m bl s st.

  Lemma search_total f : forall st uv n e i, List.length uv < f -> ends_within uv (search f st uv n e i).
  Proof.
    induction f as [|f IH]; intros st uv n e i Hf; [inversion Hf|].
    unfold search; cbn [is_parent_class].
    destruct (e && negb st); [apply ends_within_refl|].
    destruct (i && st); [apply ends_within_refl|].
    destruct (String.eqb (s_method s) "new"); [apply ends_within_refl|].
    destruct (fc_eqb (s_frame s, s_class s) (norm bl n)); [apply ends_within_refl|].
    destruct (mem_fc (norm bl n) uv) eqn:Hm; [|apply ends_within_refl].
    rewrite first_true_hit. apply (expand_total _ _ _ _ _ _ _ Hm Hf). intros p uv1 H. exact (IH _ _ _ _ _ H).
  Qed.

  (* may the edge be followed by a search for class methods (st) / instance methods? *)
  Definition adm (st e i : bool) : bool := negb (e && negb st) && negb (i && st).
  (* what is searched beyond the edge: an extended module answers with its instance methods *)
  Definition next_mode (st e : bool) : bool := if e then false else st.

  (* anc st n st' x: searching class methods (st) / instance methods at n, the walk reaches x searching st' *)
  Inductive anc : bool -> node -> bool -> node -> Prop :=
  | anc_here st n : anc st n st n
  | anc_step st n p st' x : In p (parents_of m n) -> adm st (pn_extend p) (pn_include p) = true ->
                     anc (next_mode st (pn_extend p)) (norm bl (pn_node p)) st' x -> anc st n st' x.

  Definition not_new : Prop := s_method s <> "new"%string.

  Lemma search_sound f : forall st uv n e i uv', search f st uv n e i = Some (true, uv') ->
    not_new /\ adm st e i = true /\ anc (next_mode st e) (norm bl n) (s_static s) tgt.
  Proof.
    induction f as [|f IH]; intros st uv n e i uv'; unfold search; cbn [is_parent_class]; [discriminate|].
    destruct (e && negb st) eqn:G1; [discriminate|].
    destruct (i && st) eqn:G2; [discriminate|].
    destruct (String.eqb (s_method s) "new") eqn:G4; [discriminate|].
    assert (G : not_new) by (apply String.eqb_neq; exact G4).
    assert (A : adm st e i = true) by (unfold adm; rewrite G1, G2; reflexivity).
    intros H. split; [exact G|]. split; [exact A|]. revert H.
    destruct (fc_eqb (s_frame s, s_class s) (norm bl n)) eqn:G5.
    - intros [= Hs _]. apply fc_eqb_eq in G5. apply Bool.eqb_prop in Hs. unfold tgt; rewrite G5, Hs. apply anc_here.
    - destruct (mem_fc (norm bl n) uv); cbn [negb]; [|discriminate]. rewrite first_true_hit. intros H.
      destruct (first_hit_result _ _ _ _ _ _ _ H) as [[=] | (p & uv1 & Hp & Hs)].
      destruct (IH _ _ _ _ _ _ Hs) as (_ & Ap & R). exact (anc_step _ _ _ _ _ Hp Ap R).
  Qed.

  (* Go's visited map is keyed by the class alone.  That loses nothing when every class is searched in one way
     only: classes for the kind of method asked for, modules for their instance methods. *)
  Variable mode_of : node -> bool.
  Definition well_moded : Prop :=
    forall n p, In p (parents_of m n) -> adm (mode_of n) (pn_extend p) (pn_include p) = true ->
                mode_of (norm bl (pn_node p)) = next_mode (mode_of n) (pn_extend p).

  (* a node that a failed search has been sent to is either the target searched the wrong way, or expanded and not
     the target *)
  Definition settled (uv' : list node) (x : node) : Prop :=
    (x = tgt /\ s_static s <> mode_of x) \/ (x <> tgt /\ ~ In x uv').
  (* the edge p of n, if it may be followed, leads to a settled node *)
  Definition blocked (uv' : list node) (n : node) (p : pnode) : Prop :=
    adm (mode_of n) (pn_extend p) (pn_include p) = true -> settled uv' (norm bl (pn_node p)).

  Lemma blocked_incl a b n p : incl b a -> blocked a n p -> blocked b n p.
  Proof. intros S B Ad. destruct (B Ad) as [H|[H1 H2]]; [left; exact H | right; split; [exact H1 | intro H; exact (H2 (S _ H))]]. Qed.

  (* a call made the way the walk makes it: beyond the edge, the node is searched in its own mode *)
  Lemma search_complete f : not_new -> well_moded -> forall st uv n e i uv',
    (adm st e i = true -> next_mode st e = mode_of (norm bl n)) ->
    search f st uv n e i = Some (false, uv') ->
    stretch m blocked uv uv' /\ (adm st e i = true -> settled uv' (norm bl n)).
  Proof.
    intros Gn WM. induction f as [|f IH]; intros st uv n e i uv' Hmode; unfold search; cbn [is_parent_class]; [discriminate|].
    unfold adm in *.
    destruct (e && negb st) eqn:G1; [intros [= <-]; split; [apply stretch_refl | discriminate]|].
    destruct (i && st) eqn:G2; [intros [= <-]; split; [apply stretch_refl | discriminate]|].
    specialize (Hmode eq_refl). fold (next_mode st e). rewrite Hmode.
    apply String.eqb_neq in Gn; rewrite Gn.
    destruct (fc_eqb (s_frame s, s_class s) (norm bl n)) eqn:G5.
    - (* the target, searched the wrong way *)
      intros [= Hs <-]. apply fc_eqb_eq in G5. split; [apply stretch_refl|]. intros _. left.
      split; [symmetry; exact G5|]. intro Hc. rewrite Hc, Bool.eqb_reflx in Hs. discriminate.
    - apply fc_eqb_neq in G5. assert (Nt : norm bl n <> tgt) by (intro Hc; apply G5; symmetry; exact Hc).
      destruct (mem_fc (norm bl n) uv) eqn:Hm; cbn [negb].
      + rewrite first_true_hit. intros H.
        apply (first_hit_miss m blocked blocked_incl) with (n := norm bl n) in H; [| |reflexivity].
        2:{ intros p uv1 [|] uv2 Hp Hs Hx; [discriminate|]. eapply IH; [|exact Hs].
            intros Ad. symmetry. apply WM; [exact Hp | exact Ad]. }
        destruct H as [T C]. destruct (stretch_expand _ _ _ _ _ T C) as [T' Hn].
        split; [exact T'|]. intros _. right. split; assumption.
      + intros [= <-]. apply mem_fc_false in Hm. split; [apply stretch_refl|]. intros _. right. split; assumption.
  Qed.

  (* in a well-moded map a walk that starts in the mode of its node stays in the mode of each node *)
  Lemma anc_mode : well_moded -> forall st x st' y, anc st x st' y -> st = mode_of x -> st' = mode_of y.
  Proof.
    intros WM st x st' y H; induction H as [st n | st n p st' x Hp Ad H IH]; intros E; [exact E|].
    apply IH. subst st. symmetry. apply WM; assumption.
  Qed.
  (* a walk that leaves from an expanded node in its own mode stays among expanded nodes: it never meets the target *)
  Lemma expanded_walk U uv' : well_moded -> s_static s = mode_of tgt -> stretch m blocked U uv' ->
    (forall n p, In p (parents_of m n) -> In (norm bl (pn_node p)) U) ->
    forall st x st' y, anc st x st' y -> st = mode_of x -> In x U -> ~ In x uv' -> x <> tgt -> y <> tgt.
  Proof.
    intros WM Hmode [_ C] HU st x st' y H.
    induction H as [st n | st n p st' x Hp Ad _ IH]; intros -> Hu Hmem Hne; [exact Hne|].
    destruct (C n Hu Hmem p Hp Ad) as [[Ht Hs]|[Hnt Hnm]]; [rewrite Ht in Hs; contradiction|].
    apply IH; [symmetry; apply WM; assumption | exact (HU n p Hp) | exact Hnm | exact Hnt].
  Qed.
End Search.

Lemma parents_of_in m n p : In p (parents_of m n) -> exists k ps, In (k, ps) m /\ In p ps.
Proof.
  induction m as [|[k ps] r IH]; cbn [parents_of]; [intros []|].
  destruct (fc_eqb n k); [intros H; exists k, ps; split; [left; reflexivity | exact H]|].
  intros H; destruct (IH H) as [k2 [ps2 [H1 H2]]]. exists k2, ps2; split; [right; exact H1 | exact H2].
Qed.

Lemma parents_of_app m d x : ~ In x (map fst d) -> parents_of (m ++ d) x = parents_of m x.
Proof.
  intros H. induction m as [|[k ps] r IH]; cbn [app parents_of]; [|destruct (fc_eqb x k); [reflexivity | exact IH]].
  induction d as [|[k ps] r IHd]; [reflexivity|]. cbn [parents_of map fst In] in *.
  destruct (fc_eqb x k) eqn:E; [apply fc_eqb_eq in E; subst; destruct H; left; reflexivity | apply IHd; tauto].
Qed.

Lemma norm_cases bl n : norm bl n = n \/ norm bl n = ("Builtin", snd n).
Proof. unfold norm; destruct (_ && _); [right | left]; reflexivity. Qed.

Lemma norm_nil n : norm [] n = n.
Proof. unfold norm. rewrite Bool.andb_false_r. reflexivity. Qed.

Lemma universe_start m bl n : In (norm bl n) (universe m n).
Proof. unfold universe. destruct (norm_cases bl n) as [-> | ->]; [left; reflexivity | right; left; reflexivity]. Qed.

Lemma universe_parent m bl start n p : In p (parents_of m n) -> In (norm bl (pn_node p)) (universe m start).
Proof.
  intros H. apply parents_of_in in H. destruct H as [k [ps [Hk Hp]]].
  unfold universe. right; right. apply in_flat_map. exists (k, ps); split; [exact Hk|]. cbn [fst snd].
  right. apply in_or_app. destruct (norm_cases bl (pn_node p)) as [-> | ->].
  - left. apply in_map; exact Hp.
  - right. apply (in_map (fun p => ("Builtin", pn_class p))); exact Hp.
Qed.

Theorem is_parent_class_terminates m bl s n st : exists b uv',
  is_parent_class (S (List.length (universe m n))) m bl s st (universe m n) n false false = Some (b, uv').
Proof.
  destruct (search_total m bl s (S (List.length (universe m n))) st (universe m n) n false false (le_n _)) as [b [uv' [E _]]].
  exists b, uv'; exact E.
Qed.

(* what IsParentClass decides: the walk reaches the class of the signature, searching the kind of method it is *)
Definition ancestor_spec (m : inh_map) (bl : list string) (s : sig) (n : node) (st : bool) : Prop :=
  s_method s <> "new"%string /\ anc m bl st (norm bl n) (s_static s) (s_frame s, s_class s).
(* every class is searched in one way only (see well_moded) *)
Definition moded (m : inh_map) (bl : list string) (n : node) (st : bool) : Prop :=
  exists mode_of, well_moded m bl mode_of /\ mode_of (norm bl n) = st.

Theorem is_parent_class_sound m bl s n st : IsParentClass m bl s n st = true -> ancestor_spec m bl s n st.
Proof.
  unfold IsParentClass. destruct (is_parent_class_terminates m bl s n st) as [b [uv' E]]. rewrite E.
  intros ->. apply search_sound in E. destruct E as [G [_ A]]. split; assumption.
Qed.

Theorem is_parent_class_complete m bl s n st : moded m bl n st ->
  ancestor_spec m bl s n st -> IsParentClass m bl s n st = true.
Proof.
  intros [mode_of [WM Hst]] [G A]. unfold IsParentClass.
  destruct (is_parent_class_terminates m bl s n st) as [b [uv' E]]. rewrite E.
  destruct b; [reflexivity|]. exfalso.
  apply (search_complete m bl s mode_of _ G WM) in E; [|intros _; symmetry; exact Hst].
  destruct E as [T P]. specialize (P eq_refl).
  pose proof (anc_mode m bl mode_of WM _ _ _ _ A (eq_sym Hst)) as Hmode.
  destruct P as [[Ht Hs]|[Hnt Hnm]].
  - (* the start is the target, searched the wrong way *)
    apply Hs. rewrite Hmode, Ht. reflexivity.
  - refine (expanded_walk m bl s mode_of _ _ WM Hmode T _ _ _ _ _ A (eq_sym Hst) _ Hnm Hnt eq_refl).
    + intros x p. apply universe_parent.
    + apply universe_start.
Qed.

(* a search for instance methods never changes its mode: no hypothesis is needed *)
Lemma moded_instance m bl n : moded m bl n false.
Proof.
  exists (fun _ => false). split; [|reflexivity].
  intros x p Hp Ad. unfold adm in Ad. unfold next_mode. destruct (pn_extend p); [discriminate | reflexivity].
Qed.

Section Callable.
  Variables (m : inh_map) (bl : list string) (t : target) (s : sig) (oc : string) (st : bool).

  Definition implicit : Prop := tg_meth t = ""%string.
  (* a private method is offered only inside its own class, to an implicit receiver *)
  Definition visible : Prop := s_private s = true -> implicit /\ s_class s = tg_dc t.
  (* the class around the cursor, or one of its ancestors *)
  Definition enclosing : Prop :=
    implicit /\ ((s_class s = tg_dc t /\ s_static s = tg_static t) \/ ancestor_spec m bl s (tg_df t, tg_dc t) (tg_static t)).
  (* the class of the receiver (by name), or one of its ancestors *)
  Definition receiver : Prop :=
    (s_class s = oc /\ s_static s = st) \/ (s_class s <> oc /\ ancestor_spec m bl s (tg_frame t, oc) st).
  Definition callable : Prop :=
    s_class s <> ""%string /\ s_class s <> "Kernel"%string /\ oc <> ""%string /\ visible /\ (enclosing \/ receiver).

  (* the cascade of early returns as one boolean formula *)
  Definition suggest_formula : bool :=
    let imp := String.eqb (tg_meth t) "" in
    negb (String.eqb (s_class s) "") && negb (String.eqb (s_class s) "Kernel") && negb (Nat.ltb (String.length oc) 1)
    && negb (s_private s && (negb imp || negb (String.eqb (s_class s) (tg_dc t))))
    && ((imp && String.eqb (s_class s) (tg_dc t) && Bool.eqb (s_static s) (tg_static t))
        || (imp && IsParentClass m bl s (tg_df t, tg_dc t) (tg_static t))
        || (String.eqb (s_class s) oc && Bool.eqb st (s_static s))
        || (negb (String.eqb (s_class s) oc) && IsParentClass m bl s (tg_frame t, oc) st)).

  Lemma is_suggest_formula : calc_object_class true t = Some (oc, st) ->
    is_suggest true true m bl t s = Some suggest_formula.
  Proof.
    intros Hc. unfold is_suggest, suggest_formula. rewrite Hc.
    destruct (String.eqb (s_class s) ""); [reflexivity|].
    destruct (String.eqb (s_class s) "Kernel"); [reflexivity|].
    destruct (Nat.ltb (String.length oc) 1); [reflexivity|].
    destruct (s_private s && _); [reflexivity|].
    destruct (_ && _ && _); [reflexivity|].
    destruct (_ && IsParentClass _ _ _ _ _); [reflexivity|].
    destruct (String.eqb (s_class s) oc), (Bool.eqb st (s_static s)); reflexivity.
  Qed.

  (* the two directions separately: soundness needs no hypothesis on the map *)
  Lemma formula_callable : suggest_formula = true -> callable.
  Proof.
    unfold suggest_formula, callable. intros H.
    apply andb_prop in H as [H Hd]. apply andb_prop in H as [H Hv].
    apply andb_prop in H as [H Ho]. apply andb_prop in H as [Hn Hk].
    apply Bool.negb_true_iff in Hn, Hk, Ho, Hv. apply String.eqb_neq in Hn, Hk.
    refine (conj Hn (conj Hk (conj _ (conj _ _)))).
    - intros ->. discriminate.
    - intros Hp. rewrite Hp in Hv. unfold implicit.
      destruct (String.eqb_spec (tg_meth t) ""), (String.eqb_spec (s_class s) (tg_dc t)); try discriminate.
      split; assumption.
    - unfold enclosing, receiver, implicit.
      repeat (apply Bool.orb_true_iff in Hd as [Hd|Hd]).
      + apply andb_prop in Hd as [Hd E3]. apply andb_prop in Hd as [E1 E2].
        apply String.eqb_eq in E1, E2. apply Bool.eqb_prop in E3. left; split; [exact E1|left; split; assumption].
      + apply andb_prop in Hd as [E1 E2]. apply String.eqb_eq in E1. apply is_parent_class_sound in E2.
        left; split; [exact E1|right; exact E2].
      + apply andb_prop in Hd as [E1 E2]. apply String.eqb_eq in E1. apply Bool.eqb_prop in E2.
        right; left; split; [exact E1|symmetry; exact E2].
      + apply andb_prop in Hd as [E1 E2]. apply Bool.negb_true_iff, String.eqb_neq in E1.
        apply is_parent_class_sound in E2. right; right; split; assumption.
  Qed.

  Lemma callable_formula :
    moded m bl (tg_df t, tg_dc t) (tg_static t) -> moded m bl (tg_frame t, oc) st -> callable -> suggest_formula = true.
  Proof.
    intros M1 M2 (Hn & Hk & Ho & Hv & Hd). unfold suggest_formula.
    apply String.eqb_neq in Hn, Hk. rewrite Hn, Hk.
    replace (Nat.ltb (String.length oc) 1) with false by (destruct oc; [contradiction|reflexivity]).
    apply andb_true_intro; split.
    - apply Bool.negb_true_iff. unfold visible in Hv. destruct (s_private s); [|reflexivity].
      destruct (Hv eq_refl) as [Hi Hc]. unfold implicit in Hi. rewrite Hi, Hc, !String.eqb_refl. reflexivity.
    - destruct Hd as [[Hi [[Hc Hs]|Ha]]|[[Hc Hs]|[Hc Ha]]]; unfold implicit in *.
      + rewrite Hi, Hc, Hs, !String.eqb_refl, Bool.eqb_reflx. reflexivity.
      + rewrite Hi, (is_parent_class_complete _ _ _ _ _ M1 Ha), Bool.orb_true_r. reflexivity.
      + rewrite Hc, Hs, String.eqb_refl, Bool.eqb_reflx, Bool.orb_true_r. reflexivity.
      + apply String.eqb_neq in Hc. rewrite Hc, (is_parent_class_complete _ _ _ _ _ M2 Ha). apply Bool.orb_true_r.
  Qed.

  Lemma is_suggest_sound : calc_object_class true t = Some (oc, st) ->
    is_suggest true true m bl t s = Some true -> callable.
  Proof. intros Hc. rewrite (is_suggest_formula Hc). intros [= H]. exact (formula_callable H). Qed.

  Lemma is_suggest_callable : calc_object_class true t = Some (oc, st) ->
    moded m bl (tg_df t, tg_dc t) (tg_static t) -> moded m bl (tg_frame t, oc) st ->
    (is_suggest true true m bl t s = Some true <-> callable).
  Proof.
    intros Hc M1 M2. split; [exact (is_suggest_sound Hc)|].
    intros H. rewrite (is_suggest_formula Hc), (callable_formula M1 M2 H). reflexivity.
  Qed.
End Callable.
