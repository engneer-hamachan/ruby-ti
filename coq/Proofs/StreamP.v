(* C02 / C03 / C06: the whole token stream as the evaluation loop sees it (read_all, the function the correspondence
   runs against parser.Read): on every source text it is total with fuel linear in the length of the text, it ends
   with end-of-stream after at most 3*|s|+4 Reads, it never contains `read error`, and its rows are the line breaks
   read so far. *)
From RT Require Import Model.Parser Proofs.LexerP Proofs.ParserP Proofs.RowsP.

Section Whole.
  Variable is_uspace is_udigit is_uupper is_ulower : N -> bool.
  Variable bc : list (list N).
  Hypothesis Hsp0 : is_uspace 0%N = false.
  Hypothesis Hdg0 : is_udigit 0%N = false.
  Hypothesis Hsp_dot : is_uspace ch_dot = false.
  Hypothesis Hdg_plain : forall c, is_udigit c = true ->
    ((c =? 120) || (c =? 111) || (c =? 98))%N = false /\ (c =? ch_under)%N = false /\ (c =? ch_dot)%N = false.

  Notation rall := (read_all is_uspace is_udigit is_uupper is_ulower fixed_lex bc).

  Definition is_tok (x : read_result * Z * Z) : Prop := exists k sp, fst (fst x) = RTok k sp.

  Lemma read_all_ok n : forall fuel p,
    inv is_udigit (rd (lx p)) -> pwf p -> pungot p = false ->
    (phi (rd (lx p)) < n)%nat -> (phi (rd (lx p)) + 3 < fuel)%nat ->
    exists toks row erow, rall n fuel p = Some (toks ++ [(REos, row, erow)]) /\
                          Forall is_tok toks /\ (List.length toks <= phi (rd (lx p)))%nat.
  Proof.
    induction n as [|n IH]; intros fuel p Hi Hw Hu Hn Hf; [lia|]. cbn [read_all].
    destruct (parser_read_ok is_uspace is_udigit is_uupper is_ulower fixed_lex bc eq_refl eq_refl eq_refl
                Hsp0 Hdg0 Hsp_dot Hdg_plain fuel p Hi Hw Hf) as (r & p' & Hr & Hne & Hi' & Hw' & Hle & Hlt & _).
    rewrite Hr. destruct r as [k sp| |]; [| |contradiction].
    - assert (Hdec : (phi (rd (lx p')) < phi (rd (lx p)))%nat) by (apply Hlt; [exact Hu | discriminate]).
      destruct (IH fuel p' Hi' Hw' (read_clears _ _ _ _ _ _ _ _ _ _ Hr)) as (toks & row & erow & -> & Hall & Hlen); [lia|lia|].
      exists ((RTok k sp, prow p', perror_row p') :: toks), row, erow.
      split; [reflexivity|]. split; [constructor; [exists k, sp; reflexivity | exact Hall] | cbn [List.length]; lia].
    - exists [], (prow p'), (perror_row p'). split; [reflexivity|]. split; [constructor | cbn; lia].
  Qed.

  (* every source text: the stream is total, ends with end-of-stream, holds tokens only before that, and is short *)
  Theorem read_all_total s :
    exists toks row erow,
      rall (3 * List.length s + 4) (3 * List.length s + 7) (ps_new s) = Some (toks ++ [(REos, row, erow)]) /\
      Forall is_tok toks /\ (List.length toks <= 3 * List.length s + 3)%nat.
  Proof.
    pose proof (phi_new s) as Hphi.
    destruct (read_all_ok (3 * List.length s + 4) (3 * List.length s + 7) (ps_new s)) as (toks & row & erow & Hs & Hall & Hlen).
    - left. reflexivity.
    - right; left. reflexivity.
    - reflexivity.
    - cbn [ps_new lx]. lia.
    - cbn [ps_new lx]. lia.
    - exists toks, row, erow. split; [exact Hs|]. split; [exact Hall|]. cbn [ps_new lx] in Hlen. lia.
  Qed.

  (* ... and its rows are exactly the line breaks read so far, from row 1 *)
  Theorem read_all_rows_total s :
    exists l, rall (3 * List.length s + 4) (3 * List.length s + 7) (ps_new s) = Some l /\
              rows_from 1%Z l /\ (List.length l <= 3 * List.length s + 4)%nat.
  Proof.
    destruct (read_all_total s) as (toks & row & erow & Hs & Hall & Hlen).
    exists (toks ++ [(REos, row, erow)]). split; [exact Hs|]. split.
    - apply (read_all_rows is_uspace is_udigit is_uupper is_ulower fixed_lex bc _ _ _ _ Hs); [reflexivity|].
      intros x Hx. apply in_app_or in Hx. destruct Hx as [Hx|[Hx|[]]].
      + rewrite Forall_forall in Hall. destruct (Hall x Hx) as (k & sp & E). rewrite E. discriminate.
      + subst x. discriminate.
    - rewrite app_length. cbn [List.length]. lia.
  Qed.
End Whole.
