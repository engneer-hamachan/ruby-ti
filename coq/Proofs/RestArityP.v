(* C26: the counts accepted by checkAndPropagateArgs for a configured declaration
   required ++ [rest] ++ trailing ++ defaults  (no optional parameters before the rest parameter):
   exactly |required| + |trailing| or more. *)
From RT Require Import Model.Args Proofs.ArgsP.

Section Rest.
  Variable t : tbl.
  (* a plain parameter declared with a type that admits everything and without a default *)
  Definition req_any (d : string) : bool :=
    plain_name d && match tget t d with
                    | Some dt => is_builtin dt && negb (tag_is UNKNOWN dt) && is_any_type dt && negb (has_default dt)
                    | None => false
                    end.

  (* trailing parameters with a default (the `?Block` that closes a configured signature) after the trailing
     required ones: they reserve no argument (repaired code) and are satisfied by their default *)
  Definition opt_def (d : string) : bool :=
    plain_name d && match tget t d with
                    | Some dt => is_builtin dt && negb (tag_is UNKNOWN dt) && has_default dt
                    | None => false
                    end.

  (* both are plain declared parameters (ArgsP.walk_plain applies), of the two kinds pos_walk_required and
     pos_walk_defaults speak of *)
  Lemma req_any_eq d :
    req_any d = plain_name d && (declared t d && (is_any_type (param_ty t d) && negb (has_default (param_ty t d)))).
  Proof. unfold req_any, declared, param_ty. destruct (tget t d); [rewrite !andb_assoc|]; reflexivity. Qed.

  Lemma opt_def_eq d : opt_def d = plain_name d && (declared t d && has_default (param_ty t d)).
  Proof. unfold opt_def, declared, param_ty. destruct (tget t d); reflexivity. Qed.

  Lemma plain_params (f : string -> bool) (q : ty -> bool) :
    (forall d, f d = plain_name d && (declared t d && q (param_ty t d))) -> forall L, forallb f L = true ->
    forallb plain_name L = true /\ forallb (declared t) L = true /\ forallb q (map (param_ty t) L) = true.
  Proof.
    intros Hf. induction L as [|d L IH]; cbn [forallb map]; [auto|]. rewrite Hf.
    intros [[-> [-> ->]%andb_true_iff]%andb_true_iff (-> & -> & ->)%IH]%andb_true_iff. repeat split.
  Qed.

  (* what the rest parameter leaves for the parameters after it: one argument for each without a default *)
  Lemma reserved_count Q D : forallb req_any Q = true -> forallb opt_def D = true ->
    List.length (filter (fun x => negb (is_key_suffix x) &&
                                  negb (rest_skips_defaults fixed_args && opt_has_default (tget t x))) (Q ++ D))
    = List.length Q.
  Proof.
    intros HQ HD. rewrite filter_app, app_length, filter_all, filter_none; [apply Nat.add_0_r | |].
    - revert HD. apply forallb_impl. intros d. unfold opt_def.
      destruct (tget t d) as [dt|]; [|rewrite andb_false_r; discriminate].
      intros [_ [_ Hd]%andb_true_iff]%andb_true_iff. cbn. rewrite Hd, andb_false_r. reflexivity.
    - revert HQ. apply forallb_impl. intros d. unfold req_any.
      destruct (tget t d) as [dt|]; [|rewrite andb_false_r; discriminate].
      intros [(H1 & _)%plain_name_inv [_ Hd%negb_true_iff]%andb_true_iff]%andb_true_iff. cbn. rewrite H1, Hd. reflexivity.
  Qed.

  Lemma take_while_plain l : forallb plain_arg l = true -> take_while (fun a => negb (is_keyvalue_type a)) l = l.
  Proof.
    induction l as [|a r IH]; cbn [forallb take_while]; [reflexivity|]. intros [[-> _]%andb_true_iff Hr]%andb_true_iff.
    rewrite IH by exact Hr. reflexivity.
  Qed.

  Variable star : string.
  Hypothesis Hstar : is_star star = true.
  Hypothesis Hnd : is_dstar star = false.
  (* the rest parameter is declared by the configuration: its entry stays (repaired code) *)
  Hypothesis Hdecl : match tget t (drop1 star) with Some dt => is_builtin dt | None => false end = true.

  (* walk_step on the rest parameter: it takes what is left beyond the arguments reserved *)
  Lemma star_step cr Q D s : forallb req_any Q = true -> forallb opt_def D = true ->
    forallb plain_arg (w_args s) = true -> w_tbl s = t -> w_idx s <= List.length (w_args s) ->
    walk_step fixed_args cr star (Q ++ D) s =
    SNext {| w_args := w_args s; w_idx := w_idx s + (List.length (w_args s) - w_idx s - List.length Q);
             w_aster := true; w_tbl := t |}.
  Proof.
    intros HQ HD Ha Ht Hi. unfold walk_step. rewrite Hnd, Hstar, (proj2 (Nat.ltb_ge _ _) Hi), Ht.
    rewrite (reserved_count Q D HQ HD), (take_while_plain _ (forallb_skipn _ _ _ Ha)), skipn_length.
    destruct (tget t (drop1 star)) as [dt|]; [|discriminate]. rewrite Hdecl.
    destruct (Nat.leb_spec (List.length (w_args s) - w_idx s) (List.length Q)) as [Hle|_]; [|reflexivity].
    rewrite (proj2 (Nat.sub_0_le _ _) Hle), Nat.add_0_r. reflexivity.
  Qed.

  Hypothesis Hstar_plain : is_named_darg star = false.

  (* checkAndPropagateArgs, check round, a method that does not return Untyped.  The required parameters take one
     argument each or the walk ends with `too few`; the rest parameter leaves |Q| arguments when there are as many; the
     trailing parameters are a positional walk over what is left, and `too many` cannot arise after a rest parameter. *)
  Theorem check_args_rest_defaults P Q D args :
    forallb req_any P = true -> forallb req_any Q = true -> forallb opt_def D = true -> forallb plain_arg args = true ->
    (fst (check_args fixed_args true false (P ++ star :: Q ++ D) t args) = COk
     <-> List.length P + List.length Q <= List.length args).
  Proof.
    intros HP HQ HD Ha.
    pose proof (plain_params _ (fun p => is_any_type p && negb (has_default p)) req_any_eq) as Hreq.
    destruct (Hreq P HP) as (HPn & HPd & HPr), (Hreq Q HQ) as (HQn & HQd & HQr),
      (plain_params _ has_default opt_def_eq D HD) as (HDn & HDd & HDr).
    unfold check_args. rewrite (prioritize_args_plain args Ha), prioritize_dargs_plain.
    2: { rewrite forallb_app. cbn [forallb].
         rewrite forallb_app, !plain_names_unnamed, Hstar_plain by assumption. reflexivity. }
    set (s0 := {| w_args := args; w_idx := 0; w_aster := false; w_tbl := t |}).
    pose proof (walk_plain true P (star :: Q ++ D) s0 HPn HPd Ha) as HwP.
    cbn [s0 w_tbl w_idx w_args skipn Nat.add] in HwP. rewrite (pos_walk_required _ HPr), map_length in HwP.
    destruct (Nat.leb_spec (List.length P) (List.length args)) as [HleP|HltP];
      [|destruct HwP as [j ->]; split; [discriminate | lia]].
    rewrite HwP. cbn [walk]. rewrite (star_step true Q D (at_idx s0 (List.length P)) HQ HD Ha eq_refl HleP).
    cbn [s0 at_idx w_args w_idx].
    set (i := List.length P + (List.length args - List.length P - List.length Q)).
    destruct (walk_positional true (Q ++ D) {| w_args := args; w_idx := i; w_aster := true; w_tbl := t |})
      as (s' & -> & -> & ->); cbn [w_args w_idx w_tbl w_aster];
      rewrite ?forallb_app, ?HQn, ?HQd; trivial.
    rewrite map_app, pos_walk_app, (pos_walk_required _ HQr), map_length, skipn_length.
    destruct (Nat.leb_spec (List.length Q) (List.length args - i)) as [HleQ|HltQ]; [|split; [discriminate | lia]].
    rewrite skipn_all2 by (rewrite skipn_length; lia). rewrite (pos_walk_defaults true _ [] HDr (zip_forall_nil_r _ _)).
    rewrite andb_false_r. split; [lia | reflexivity].
  Qed.
End Rest.
