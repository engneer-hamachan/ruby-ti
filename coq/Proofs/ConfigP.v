(* Proofs about Model/Config.v: parseTypeString freed of its fuel, and its equation on each form of notation *)
From RT Require Import Model.Config Proofs.StrsP Generated.

Lemma map_opt_some_map {A B} (f : A -> option B) (g : A -> B) l :
  (forall x, In x l -> f x = Some (g x)) -> map_opt f l = Some (map g l).
Proof.
  induction l as [|x r IH]; intros H; cbn [map_opt map]; [reflexivity|].
  rewrite (H x (or_introl eq_refl)), IH; [reflexivity|]. intros; apply H; right; assumption.
Qed.

(* one unfolding of parseTypeString, the recursive calls being parse_type_string itself *)
Definition pts_body (s : string) : ty :=
  match s with
  | String c rest =>
      let n := String.length s in
      if (Nat.ltb 1 n) && Ascii.eqb c c_q then MakeUnion [parse_type_string rest; NilT]
      else if (Nat.ltb 1 n) && Ascii.eqb c c_star then set_ast (parse_type_string rest) true
      else if (Nat.ltb 2 n) && Ascii.eqb c c_lb &&
              (match last_char s with Some l => Ascii.eqb l c_rb | None => false end)
      then MakeArray [parse_type_string (drop_last rest)]
      else if contains_char c_bar s
      then MakeUnion (map (fun p => parse_type_string (trim_space p)) (split_char c_bar s))
      else convert_to_builtin s
  | EmptyString => convert_to_builtin s
  end.

(* fuel above the length suffices, and then does not matter: every recursive call is on a shorter string.
   Strong induction, because the calls in pts_body are parse_type_string, which brings a fuel of its own *)
Lemma parse_ts_fuel_enough n : forall s, String.length s < n -> parse_ts_fuel n s = Some (pts_body s).
Proof.
  induction n as [n IH] using lt_wf_ind. intros s Hn. destruct n as [|n]; [lia|].
  assert (Hrec : forall x, String.length x < String.length s -> parse_ts_fuel n x = Some (parse_type_string x)).
  { intros x Hx. unfold parse_type_string. rewrite 2 IH by lia. reflexivity. }
  destruct s as [|c rest]; [reflexivity|]. cbn [parse_ts_fuel pts_body]. cbn [String.length] in Hrec.
  destruct (_ && Ascii.eqb c c_q). { rewrite Hrec by lia. reflexivity. }
  destruct (_ && Ascii.eqb c c_star). { rewrite Hrec by lia. reflexivity. }
  destruct (_ && _ && _). { pose proof (length_drop_last rest). rewrite Hrec by lia. reflexivity. }
  destruct (contains_char c_bar (String c rest)) eqn:E; [|reflexivity].
  rewrite (map_opt_some_map _ (fun p => parse_type_string (trim_space p))); [reflexivity|].
  intros p Hp. apply Hrec. apply split_char_length in Hp. rewrite E in Hp.
  pose proof (length_trim_space p). cbn [String.length Nat.b2n] in Hp. lia.
Qed.

Lemma pts_unfold s : parse_type_string s = pts_body s.
Proof. unfold parse_type_string. rewrite parse_ts_fuel_enough by lia. reflexivity. Qed.

Lemma pts_opt T : T <> "" -> parse_type_string (String c_q T) = MakeUnion [parse_type_string T; NilT].
Proof. intros HT. rewrite pts_unfold. destruct T; [congruence|reflexivity]. Qed.

Lemma pts_ast T : T <> "" -> parse_type_string (String c_star T) = set_ast (parse_type_string T) true.
Proof. intros HT. rewrite pts_unfold. destruct T; [congruence|reflexivity]. Qed.

Lemma pts_array T :
  T <> "" -> parse_type_string (String c_lb (T ++ "]")) = MakeArray [parse_type_string T].
Proof.
  intros HT. rewrite pts_unfold. cbn [pts_body String.length].
  pose proof (last_char_snoc (String c_lb T) "]") as Hl. cbn [append] in Hl.
  rewrite Hl, length_snoc, drop_last_snoc. destruct T; [congruence|reflexivity].
Qed.

Definition starts_with (c : ascii) (s : string) : bool :=
  match s with String x _ => Ascii.eqb x c | EmptyString => false end.

Definition bracketed (s : string) : bool :=
  Nat.ltb 2 (String.length s) && starts_with c_lb s &&
  match last_char s with Some l => Ascii.eqb l c_rb | None => false end.

(* a string that takes none of the three prefix/bracket branches *)
Definition plain_head (s : string) : bool :=
  negb (starts_with c_q s && Nat.ltb 1 (String.length s)) &&
  negb (starts_with c_star s && Nat.ltb 1 (String.length s)) &&
  negb (bracketed s).

Lemma pts_plain s :
  plain_head s = true ->
  parse_type_string s =
    if contains_char c_bar s
    then MakeUnion (map (fun p => parse_type_string (trim_space p)) (split_char c_bar s))
    else convert_to_builtin s.
Proof.
  intros Hp. rewrite pts_unfold. destruct s as [|c rest]; [reflexivity|].
  unfold plain_head, bracketed, starts_with in Hp. apply andb_true_iff in Hp as [[H1 H2]%andb_true_iff H3].
  rewrite andb_comm in H1, H2. apply negb_true_iff in H1, H2, H3.
  cbn [pts_body]. rewrite H1, H2, H3. reflexivity.
Qed.
