(* Token layer: the lexer driven to end of stream (totality, token bound, full consumption); parser.Read characterised
   once by read_of, with its totality (no `read error`), what getToken does to the row and line-head fields, and the
   `[` at the head of a line (C11). *)
From RT Require Import Model.Parser Proofs.LexerP.
Open Scope N_scope.

Section Stream.
  Variable is_uspace is_udigit is_uupper is_ulower : N -> bool.
  Variable V : lex_variant.
  Variable builtin_classes : list (list N).
  Hypothesis Hfix_eof : fix_eof V = true.
  Hypothesis Hfix_nul : fix_nul V = true.
  Hypothesis Hfix_bt : fix_backtick V = true.
  Hypothesis Hsp0 : is_uspace 0 = false.
  Hypothesis Hdg0 : is_udigit 0 = false.
  Hypothesis Hsp_dot : is_uspace ch_dot = false.
  Hypothesis Hdg_plain : forall c, is_udigit c = true ->
    ((c =? 120) || (c =? 111) || (c =? 98)) = false /\ (c =? ch_under) = false /\ (c =? ch_dot) = false.

  Notation adv := (advance is_uspace is_udigit V).
  Notation Inv := (inv is_udigit).

  (* the lexer driven to end of stream: at most n tokens *)
  Fixpoint lex_all (n fuel : nat) (l : lexer) : option (list lexer * lexer) :=
    match n with
    | O => None
    | S n' =>
        match adv fuel l with
        | None => None
        | Some (false, l') => Some ([], l')
        | Some (true, l') =>
            match lex_all n' fuel l' with
            | Some (ts, lf) => Some (l' :: ts, lf)
            | None => None
            end
        end
    end.

  Lemma lex_all_ok n : forall fuel l, Inv (rd l) -> (phi (rd l) < n)%nat -> (phi (rd l) + 3 < fuel)%nat ->
    exists ts lf, lex_all n fuel l = Some (ts, lf) /\ (length ts <= phi (rd l))%nat /\
                  rd_eof (rd lf) = true /\ Forall tok_wf ts.
  Proof.
    induction n as [|n IH]; intros fuel l Hi Hn Hf; [lia|]. cbn [lex_all].
    destruct (advance_ok is_uspace is_udigit V Hfix_eof Hfix_nul Hsp0 Hdg0 Hsp_dot Hdg_plain fuel l Hi Hf)
      as ([|] & l' & -> & Hi' & Ht & Hfalse).
    - destruct (Ht eq_refl) as [Hlt Hwf].
      destruct (IH fuel l' Hi') as (ts & lf & -> & Hlen & Heof & Hall); [lia|lia|].
      exists (l' :: ts), lf. cbn [length]. repeat split; auto; lia.
    - exists [], l'. cbn [length]. repeat split; auto; lia.
  Qed.

  Lemma length_normalize_eof s : (length (normalize_eof s) <= length s + 1)%nat.
  Proof.
    unfold normalize_eof. destruct s as [|x r]; [lia|].
    destruct (last (x :: r) 0 =? 10); [lia|]. rewrite app_length. cbn [length]. lia.
  Qed.

  Lemma phi_new s : (phi (rd (lx_new s)) <= 3 * length s + 3)%nat.
  Proof.
    unfold phi, lx_new, rd_new. cbn [rd rest hist ungot cur length]. pose proof (length_normalize_eof s). lia.
  Qed.

  (* C03: every rune sequence is tokenized with fuel linear in its length, into at most 3*|s|+3 tokens, and end of
     stream is answered only when every rune has been consumed.  A fresh lexer has potential at most 3*|s|+3
     (phi_new: 3 per rune, and the line break the reader may add); lex_all_ok wants more turns than that and fuel
     above it by 3, which is what the dearest step of Advance (lexDigit entered on a pushed-back digit) asks for. *)
  Theorem lexer_total s :
    exists ts lf, lex_all (3 * length s + 4) (3 * length s + 7) (lx_new s) = Some (ts, lf) /\
                  (length ts <= 3 * length s + 3)%nat /\
                  rest (rd lf) = [] /\ hist (rd lf) = [] /\ ungot (rd lf) = false /\
                  Forall tok_wf ts.
  Proof.
    pose proof (phi_new s) as Hphi.
    destruct (lex_all_ok (3 * length s + 4) (3 * length s + 7) (lx_new s)) as (ts & lf & Hs & Hlen & Heof & Hall);
      [left; reflexivity|lia|lia|].
    apply eof_empty in Heof as (H1 & H2 & H3). exists ts, lf. repeat split; auto; lia.
  Qed.

  Notation pread := (parser_read is_uspace is_udigit is_uupper is_ulower V builtin_classes).
  Notation gtok := (get_token is_uspace is_udigit V).

  Definition tv_ok (t : Z) (v : tokval) : Prop :=
    t = T_EOS \/ t = T_NIL \/ t = T_FLOAT \/
    (t = T_INT /\ exists z, v = VIntLit z) \/
    (t = T_STRING /\ exists s, v = VStrLit s) \/
    (t = T_UNKNOWN /\ exists s, v = VId s) \/
    (exists c, t = Z.of_N c /\ (existsb (N.eqb c) single_tokens = true \/ c = ch_dot)).

  Definition pwf (p : parser) : Prop := tv_ok (ptoken p) (val (lx p)).

  Lemma tok_wf_tv l : tok_wf l -> tv_ok (tok l) (val l) /\ tok l <> T_EOS.
  Proof.
    unfold tv_ok. intros [[E H]|[[E H]|[[E H]|[[[E|E] H]|(c & E & H)]]]]; (split; [|rewrite E; try discriminate]).
    - (* INT *) do 3 right; left. auto.
    - (* FLOAT *) do 2 right; left. exact E.
    - (* STRING *) do 4 right; left. auto.
    - (* UNKNOWN *) do 5 right; left. auto.
    - (* NIL *) right; left. exact E.
    - (* a rune *) do 6 right. eauto.
    - unfold T_EOS. lia.
  Qed.

  Lemma get_token_ok fuel p :
    Inv (rd (lx p)) -> pwf p -> (phi (rd (lx p)) + 3 < fuel)%nat ->
    exists p', gtok fuel p = Some p' /\ Inv (rd (lx p')) /\ pwf p' /\ (phi (rd (lx p')) <= phi (rd (lx p)))%nat /\
               (pungot p = false -> ptoken p' <> T_EOS -> (phi (rd (lx p')) < phi (rd (lx p)))%nat) /\
               (pungot p = false -> ptoken p' = T_EOS -> rd_eof (rd (lx p')) = true).
  Proof.
    intros Hi Hw Hf. unfold get_token. destruct (pungot p).
    - eexists; split; [reflexivity|]. repeat split; auto; discriminate.
    - destruct (advance_ok is_uspace is_udigit V Hfix_eof Hfix_nul Hsp0 Hdg0 Hsp_dot Hdg_plain fuel (lx p) Hi Hf)
        as ([|] & l' & -> & Hi' & Ht & Hfalse).
      + destruct (Ht eq_refl) as [Hlt Hwf]. apply tok_wf_tv in Hwf as [Hwf Hne].
        destruct (tok l' =? Z.of_N ch_nl)%Z; (eexists; split; [reflexivity|]); cbn [lx ptoken];
          (repeat split; [exact Hi'|exact Hwf|lia|intros _ _; exact Hlt|intros _ E; contradiction]).
      + eexists; split; [reflexivity|]. specialize (Hfalse eq_refl). pose proof (eof_phi _ Hfalse). cbn [lx ptoken].
        repeat split; [exact Hi'|left; reflexivity|lia|intros _ E; contradiction|intros _ _; exact Hfalse].
  Qed.

  (* what getToken does to the fields the parser keeps beside the lexer *)
  Lemma get_token_fields fuel p p' : gtok fuel p = Some p' ->
    prow p' = (prow p + (if pungot p then 0 else if (ptoken p' =? Z.of_N ch_nl)%Z then 1 else 0))%Z /\
    preplayed p' = pungot p /\ pungot p' = false /\
    (pungot p = false -> ptoken p' = T_EOS \/ pline_head p' = (ptoken p =? Z.of_N ch_nl)%Z || negb (phas_token p)).
  Proof.
    unfold get_token. destruct (pungot p).
    - intros [= <-]. cbn. repeat split; [lia|discriminate].
    - destruct (advance is_uspace is_udigit V fuel (lx p)) as [[[|] l']|]; [| |discriminate].
      + destruct (tok l' =? Z.of_N ch_nl)%Z eqn:E; intros [= <-]; cbn [prow ptoken preplayed pungot pline_head]; rewrite ?E;
          repeat split; auto; lia.
      + intros [= <-]. cbn. repeat split; lia.
  Qed.

  (* T.IsBeforeSpace as Read sets it *)
  Definition before_space (p : parser) : bool :=
    is_space (lx p) || ((ptoken p =? Z.of_N ch_lb)%Z && pline_head p).

  Definition with_row (p : parser) (row : Z) : parser :=
    Ps (lx p) (ptoken p) (pungot p) row (perror_row p) (preplayed p) (pline_head p) (phas_token p).

  (* the tokens Read has a case for; any other is answered with `read error` *)
  Definition readable (t : Z) (v : tokval) : bool :=
    if (t =? T_INT)%Z then match v with VIntLit _ => true | _ => false end
    else if (t =? T_STRING)%Z then match v with VStrLit _ => true | _ => false end
    else if (t =? T_UNKNOWN)%Z then match v with VId _ => true | _ => false end
    else (t =? T_FLOAT)%Z || (t =? T_NIL)%Z || (t =? T_EOS)%Z || ((0 <? t)%Z && accepted_punct V (Z.to_N t)).

  (* what Read makes of the token getToken has left in p, case by case *)
  Inductive read_of (p : parser) : read_result -> parser -> Prop :=
  | read_int z : ptoken p = T_INT -> val (lx p) = VIntLit z -> read_of p (RTok (KInt z) (before_space p)) (finish p)
  | read_float : ptoken p = T_FLOAT -> read_of p (RTok KFloat (before_space p)) (finish p)
  | read_string s : ptoken p = T_STRING -> val (lx p) = VStrLit s ->
      read_of p (RTok (KString s) (before_space p))
                (finish (with_row p (if preplayed p then prow p else (prow p + count_nl s)%Z)))
  | read_nil : ptoken p = T_NIL -> read_of p (RTok KNil (before_space p)) (finish p)
  | read_name s : ptoken p = T_UNKNOWN -> val (lx p) = VId s ->
      read_of p (RTok (classify is_uupper is_ulower builtin_classes s) (before_space p)) (finish p)
  | read_eos : ptoken p = T_EOS -> read_of p REos p
  | read_punct : (0 < ptoken p)%Z -> accepted_punct V (Z.to_N (ptoken p)) = true ->
      read_of p (RTok (KPunct (Z.to_N (ptoken p))) (before_space p)) (finish p)
  | read_error : readable (ptoken p) (val (lx p)) = false -> read_of p RError p.

  Lemma classify_name s :
    match classify is_uupper is_ulower builtin_classes s with KBool | KClass _ | KConst _ | KSymbol _ | KIdent _ => True | _ => False end.
  Proof.
    unfold classify. destruct (_ || _); [exact I|]. destruct (is_class_name _ _ _ s); [exact I|].
    destruct (is_const_name _ _ _ s); [exact I|]. destruct (is_symbol_name s); exact I.
  Qed.

  Lemma parser_read_spec fuel p0 p :
    gtok fuel p0 = Some p -> exists r p', pread fuel p0 = Some (r, p') /\ read_of p r p'.
  Proof.
    unfold parser_read. intros ->.
    (* readable is decided by the tests Read makes: unfolded beside them, it is settled by the same case splits, so
       that where Read answers an error it has become false *)
    assert (Herr : readable (ptoken p) (val (lx p)) = false -> exists r p', Some (RError, p) = Some (r, p') /\ read_of p r p').
    { intros Hb. exists RError, p. split; [reflexivity|]. apply read_error. exact Hb. }
    unfold readable in Herr.
    destruct (ptoken p =? T_INT)%Z eqn:E1.
    { apply Z.eqb_eq in E1. destruct (val (lx p)) eqn:Ev; try exact (Herr eq_refl). eauto using read_int. }
    destruct (ptoken p =? T_FLOAT)%Z eqn:E2; [apply Z.eqb_eq in E2; eauto using read_float|].
    destruct (ptoken p =? T_STRING)%Z eqn:E3.
    { apply Z.eqb_eq in E3. destruct (val (lx p)) eqn:Ev; try exact (Herr eq_refl). eauto using read_string. }
    destruct (ptoken p =? T_NIL)%Z eqn:E4; [apply Z.eqb_eq in E4; eauto using read_nil|].
    destruct (ptoken p =? T_UNKNOWN)%Z eqn:E5.
    { apply Z.eqb_eq in E5. destruct (val (lx p)) eqn:Ev; try exact (Herr eq_refl). eauto using read_name. }
    destruct (ptoken p =? T_EOS)%Z eqn:E6; [apply Z.eqb_eq in E6; eauto using read_eos|].
    destruct ((0 <? ptoken p)%Z && accepted_punct V (Z.to_N (ptoken p))) eqn:E7; [|exact (Herr eq_refl)].
    apply andb_true_iff in E7 as [E7 E8]. apply Z.ltb_lt in E7. eauto using read_punct.
  Qed.

  Lemma parser_read_inv fuel p0 r p' :
    pread fuel p0 = Some (r, p') -> exists p, gtok fuel p0 = Some p /\ read_of p r p'.
  Proof.
    intros H. destruct (gtok fuel p0) as [p|] eqn:G; [|unfold parser_read in H; rewrite G in H; discriminate].
    destruct (parser_read_spec fuel p0 p G) as (r1 & p1 & H1 & Hro). rewrite H1 in H. injection H as <- <-. eauto.
  Qed.

  (* Read leaves alone everything but the space flags and, for a string, the row *)
  Lemma read_of_frame p r p' : read_of p r p' ->
    rd (lx p') = rd (lx p) /\ val (lx p') = val (lx p) /\ ptoken p' = ptoken p /\ pungot p' = pungot p.
  Proof. destruct 1; repeat split. Qed.

  Lemma read_of_eos p r p' : read_of p r p' -> r <> RError -> (r = REos <-> ptoken p = T_EOS).
  Proof.
    destruct 1 as [z E _|E|s E _|E|s E _|E|Hpos _|]; intros Hne; [..|contradiction]; try (rewrite E; split; discriminate).
    - split; auto.
    - split; [discriminate|]. intros E. rewrite E in Hpos. discriminate.
  Qed.

  (* every token the lexer can have left is one Read knows *)
  Lemma tv_ok_readable t v : tv_ok t v -> readable t v = true.
  Proof.
    intros [Ht|[Ht|[Ht|[[Ht [z Hv]]|[[Ht [s Hv]]|[[Ht [s Hv]]|(c & Ht & [Hc| ->])]]]]]]; rewrite ?Ht, ?Hv; try reflexivity.
    (* the single-rune tokens: a finite table, with the backtick among them *)
    assert (Hall : forallb (fun c => readable (Z.of_N c) v) single_tokens = true)
      by (unfold readable, accepted_punct; rewrite Hfix_bt; reflexivity).
    apply existsb_exists in Hc as (x & Hx & E). apply N.eqb_eq in E. subst x.
    exact (proj1 (forallb_forall _ _) Hall c Hx).
  Qed.

  (* C03: whatever the lexer emits, parser.Read builds a token of a defined kind *)
  Theorem parser_read_ok fuel p :
    Inv (rd (lx p)) -> pwf p -> (phi (rd (lx p)) + 3 < fuel)%nat ->
    exists r p', pread fuel p = Some (r, p') /\ r <> RError /\ Inv (rd (lx p')) /\ pwf p' /\
                 (phi (rd (lx p')) <= phi (rd (lx p)))%nat /\
                 (pungot p = false -> r <> REos -> (phi (rd (lx p')) < phi (rd (lx p)))%nat) /\
                 (pungot p = false -> r = REos -> rd_eof (rd (lx p')) = true).
  Proof.
    intros Hi Hw Hf.
    destruct (get_token_ok fuel p Hi Hw Hf) as (p1 & Hg & Hi1 & Hw1 & Hle & Hlt & Heos).
    destruct (parser_read_spec fuel p p1 Hg) as (r & p' & Hr & Hro).
    assert (Hne : r <> RError).
    { intros ->. apply tv_ok_readable in Hw1. inversion Hro. congruence. }
    destruct (read_of_frame _ _ _ Hro) as (F1 & F2 & F3 & _). apply read_of_eos in Hro as [Hro1 Hro2]; [|exact Hne].
    exists r, p'. unfold pwf. rewrite F1, F2, F3. repeat split; auto.
  Qed.
End Stream.

(* C11: a `[` that opens a line is read as "preceded by a space": it is never an index on the value of the
   previous line *)
Lemma bracket_at_line_head sp dg up lo V bc fuel p0 r p' :
  pungot p0 = false -> ((ptoken p0 =? Z.of_N ch_nl)%Z || negb (phas_token p0)) = true ->
  parser_read sp dg up lo V bc fuel p0 = Some (r, p') ->
  match r with RTok (KPunct c) b => c = ch_lb -> b = true | _ => True end.
Proof.
  intros Hu Hl Hr. apply parser_read_inv in Hr as (p & Hg & Hro).
  apply get_token_fields in Hg as (_ & _ & _ & Hlh). specialize (Hlh Hu). rewrite Hl in Hlh.
  destruct Hro as [z E _|E|s E _|E|s E _|E|Hpos _|]; try exact I.
  - pose proof (classify_name up lo bc s). destruct (classify up lo bc s); easy.
  - intros Hc. destruct Hlh as [He|Hh]; [rewrite He in Hpos; discriminate|].
    unfold before_space. rewrite Hh, <- (Z2N.id (ptoken p)), Hc by lia. apply orb_true_r.
Qed.
