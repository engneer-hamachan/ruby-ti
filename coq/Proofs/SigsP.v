(* C05: the two listing comparators are total orders, so the sorted listings are canonical (SortP.sort_perm); the
   map-range sites of the source are the audited ones *)
From RT Require Import Model.Sigs Proofs.SortP Proofs.ArgsP Generated.

Lemma z_order : total_order Z.leb.
Proof. split; lia. Qed.

(* the comparators are lexicographic products of these *)
Lemma rest_order : total_order rest_le.
Proof. unfold rest_le. auto 6 using lex_total_order, str_order, z_order, bool_le_order. Qed.

Lemma key_order : total_order key_le.
Proof. unfold key_le. auto using lex_total_order, str_order, rest_order. Qed.

Lemma key_by_method_inj a b : key_by_method a = key_by_method b -> a = b.
Proof. destruct a, b. intros [= -> -> -> -> -> -> -> -> ->]. reflexivity. Qed.
Lemma key_by_class_inj a b : key_by_class a = key_by_class b -> a = b.
Proof. destruct a, b. intros [= -> -> -> -> -> -> -> -> ->]. reflexivity. Qed.

Lemma le_by_method_order : total_order le_by_method.
Proof. exact (inj_total_order key_by_method key_le key_by_method_inj key_order). Qed.
Lemma le_by_class_order : total_order le_by_class.
Proof. exact (inj_total_order key_by_class key_le key_by_class_inj key_order). Qed.

(* the source's map-range sites are exactly the audited ones *)
Definition site_eqb (a : string * string * nat * string * site_class) (b : string * string * nat * string) : bool :=
  let '(f, g, n, e, _) := a in let '(f', g', n', e') := b in
  String.eqb f f' && String.eqb g g' && Nat.eqb n n' && String.eqb e e'.
Fixpoint sites_eqb (a : list (string * string * nat * string * site_class)) (b : list (string * string * nat * string)) : bool :=
  match a, b with
  | [], [] => true
  | x :: r, y :: s => site_eqb x y && sites_eqb r s
  | _, _ => false
  end.

Lemma sites_audited : sites_eqb audited_sites map_range_sites = true.
Proof. vm_compute. reflexivity. Qed.
