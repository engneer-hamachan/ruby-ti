(* C21: parseArguments / parseReturnType (Model/Config.v) on equivalent notations — how a parsed argument is finished
   (arg_finish), the `?` and `*` prefixes for any parser variant under `strips`, `A|B` unions, the Default names *)
From RT Require Import Model.Config Proofs.StrsP Proofs.ConfigP Generated.

Definition mkret (ts : list string) (c d p : bool) : jret :=
  {| jr_types := ts; jr_cond := c; jr_des := d; jr_cap := p |}.
Definition mkarg (ts : list string) (k : string) (a d : bool) : jarg :=
  {| ja_types := ts; ja_key := k; ja_ast := a; ja_def := d |}.

(* well-formedness of the parts of an `A|B|...` notation: no separator inside, already trimmed *)
Definition part_ok (p : string) : Prop := contains_char c_bar p = false /\ trim_space p = p.

Lemma map_trim_parts parts :
  Forall part_ok parts ->
  map (fun p => parse_type_string (trim_space p)) parts = map parse_type_string parts.
Proof.
  induction 1 as [|p r [_ Ht] _ IH]; cbn [map]; [reflexivity|]. rewrite Ht, IH. reflexivity.
Qed.

Lemma pts_alternatives a b r :
  Forall part_ok (a :: b :: r) ->
  plain_head (join_char c_bar (a :: b :: r)) = true ->
  parse_type_string (join_char c_bar (a :: b :: r)) = MakeUnion (map parse_type_string (a :: b :: r)).
Proof.
  intros Hall Hp. rewrite pts_plain by assumption. rewrite contains_char_join.
  rewrite split_char_join_all; [|discriminate|].
  - rewrite map_trim_parts by assumption. reflexivity.
  - eapply Forall_impl; [|exact Hall]. intros x [H _]; exact H.
Qed.

(* return types: one string that parses as the union of a list means that list *)
Lemma return_union s a b r c d p :
  parse_type_string s = MakeUnion (map parse_type_string (a :: b :: r)) ->
  parse_return_type (mkret [s] c d p) = parse_return_type (mkret (a :: b :: r) c d p).
Proof. intros H. unfold parse_return_type, mkret; cbn [jr_types jr_cond jr_des jr_cap]. rewrite H. reflexivity. Qed.

(* what parseArguments puts on the parsed type, whatever the notation: builtin, asterisk, default *)
Definition arg_finish (t : ty) (ast def : bool) : ty :=
  let b1 := set_bi (set_ast t ast) true in if def then set_hd b1 true else b1.

Lemma arg_finish_hd t ast def : arg_finish (set_hd t true) ast def = arg_finish t ast true.
Proof. destruct t as [? ? ? ? ? ? ? ? [] ? ? ? ? ? ?], def; reflexivity. Qed.

Lemma arg_finish_bi t ast def : arg_finish (set_bi t true) ast def = arg_finish t ast def.
Proof. destruct t as [? ? ? ? ? ? ? ? [] ? ? ? ? ? ?]; reflexivity. Qed.

Lemma set_ast_over t a b : set_ast (set_ast t a) b = set_ast t b.
Proof. destruct t as [? ? ? ? ? ? ? ? [? ? ? ? ? ? ? ? ? ?] ? ? ? ? ? ?]. reflexivity. Qed.

Lemma parse_argument_ext v ts ts' k a a' d d' :
  arg_base v ts a d = arg_base v ts' a' d' ->
  parse_argument v (mkarg ts k a d) = parse_argument v (mkarg ts' k a' d').
Proof. intros H. unfold parse_argument, mkarg; cbn [ja_types ja_key ja_ast ja_def]. rewrite H. reflexivity. Qed.

(* T as written in the long form must itself not use the argument-level prefixes *)
Definition arg_plain (T : string) : bool :=
  negb (starts_with c_star T) && negb (starts_with c_q T) && negb (is_name_space T).

Lemma arg_base_plain v T ast def :
  T <> "" -> arg_plain T = true -> arg_base v [T] ast def = arg_finish (parse_type_string T) ast def.
Proof.
  intros HT Hp. unfold arg_base. destruct T as [|c rest]; [congruence|].
  unfold arg_plain, starts_with in Hp. apply andb_true_iff in Hp as [[H1 H2]%andb_true_iff H3].
  apply negb_true_iff in H1, H2, H3. rewrite H1, H2, H3. reflexivity.
Qed.

(* the two prefixes are stripped when T has neither `|` nor `[`; the repaired code strips them always *)
Definition strips (v : cfg_variant) (T : string) : bool := no_bar_no_bracket T || fix_arg_prefix v.

Lemma arg_base_ast v T ast def :
  strips v T = true -> arg_base v [String c_star T] ast def = arg_finish (parse_type_string T) true def.
Proof.
  intros H. unfold arg_base. change (no_bar_no_bracket (String c_star T)) with (no_bar_no_bracket T).
  fold (strips v T). rewrite H. reflexivity.
Qed.

Lemma arg_base_opt v T ast def :
  strips v T = true -> arg_base v [String c_q T] ast def = arg_finish (set_hd (parse_type_string T) true) ast def.
Proof.
  intros H. unfold arg_base. change (no_bar_no_bracket (String c_q T)) with (no_bar_no_bracket T).
  fold (strips v T). rewrite H. reflexivity.
Qed.

(* "?T" ≡ T with is_default: the repaired code for every T, the pinned code when T has neither `|` nor `[` *)
Lemma opt_arg v T k ast def :
  T <> "" -> arg_plain T = true -> strips v T = true ->
  parse_argument v (mkarg [String c_q T] k ast def) = parse_argument v (mkarg [T] k ast true).
Proof.
  intros HT Hp Hs. apply parse_argument_ext.
  rewrite (arg_base_opt _ _ _ _ Hs), (arg_base_plain _ T) by assumption. apply arg_finish_hd.
Qed.

Lemma opt_arg_partial v T k ast def :
  T <> "" -> arg_plain T = true -> no_bar_no_bracket T = true ->
  parse_argument v (mkarg [String c_q T] k ast def) = parse_argument v (mkarg [T] k ast true).
Proof. intros HT Hp Hnb. apply opt_arg; [assumption..|]. unfold strips. rewrite Hnb. reflexivity. Qed.

(* "*T" ≡ T with is_asterisk, under the same condition *)
Lemma ast_arg v T k ast def :
  T <> "" -> arg_plain T = true -> strips v T = true ->
  parse_argument v (mkarg [String c_star T] k ast def) = parse_argument v (mkarg [T] k true def).
Proof.
  intros HT Hp Hs. apply parse_argument_ext.
  rewrite (arg_base_ast _ _ _ _ Hs), (arg_base_plain _ T) by assumption. reflexivity.
Qed.

Lemma ast_arg_partial v T k ast def :
  T <> "" -> arg_plain T = true -> no_bar_no_bracket T = true ->
  parse_argument v (mkarg [String c_star T] k ast def) = parse_argument v (mkarg [T] k true def).
Proof. intros HT Hp Hnb. apply ast_arg; [assumption..|]. unfold strips. rewrite Hnb. reflexivity. Qed.

(* a string with a `|` that begins with `*` or `?` is longer than that one character, so plain_head excludes
   both prefixes *)
Lemma plain_head_arg_plain s :
  plain_head s = true -> contains_char c_bar s = true -> is_name_space s = false -> arg_plain s = true.
Proof.
  intros Hp Hc Hns. unfold arg_plain. rewrite Hns. destruct s as [|x [|y r]]; [discriminate| |].
  - cbn [contains_char] in Hc. rewrite orb_false_r in Hc. apply Ascii.eqb_eq in Hc. subst x. reflexivity.
  - unfold plain_head in Hp. cbn [starts_with String.length Nat.ltb Nat.leb] in *. rewrite !andb_true_r in Hp.
    apply andb_true_iff in Hp as [[H1 H2]%andb_true_iff _]. rewrite H1, H2. reflexivity.
Qed.

(* "A|B|…"  ≡  ["A","B",…], for any model variant *)
Lemma union_arg v a b r k ast def :
  Forall part_ok (a :: b :: r) ->
  plain_head (join_char c_bar (a :: b :: r)) = true ->
  is_name_space (join_char c_bar (a :: b :: r)) = false ->
  parse_argument v (mkarg [join_char c_bar (a :: b :: r)] k ast def) =
  parse_argument v (mkarg (a :: b :: r) k ast def).
Proof.
  intros Hall Hp Hns. apply parse_argument_ext. pose proof (contains_char_join c_bar a b r) as Hc.
  rewrite arg_base_plain.
  - rewrite pts_alternatives by assumption. reflexivity.
  - intros E. rewrite E in Hc. discriminate.
  - apply plain_head_arg_plain; assumption.
Qed.

(* DefaultX ≡ X with is_default: in the regenerated table DefaultX is X marked has-default and builtin *)
Lemma default_arg v D X k ast def :
  D <> "" -> arg_plain D = true -> X <> "" -> arg_plain X = true ->
  parse_type_string D = set_bi (set_hd (parse_type_string X) true) true ->
  parse_argument v (mkarg [D] k ast def) = parse_argument v (mkarg [X] k ast true).
Proof.
  intros HD HpD HX HpX H. apply parse_argument_ext.
  rewrite 2 arg_base_plain by assumption. rewrite H, arg_finish_bi. apply arg_finish_hd.
Qed.
