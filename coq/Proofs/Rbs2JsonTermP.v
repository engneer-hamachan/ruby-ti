(* C25 (continued): convertType terminates on every document — type aliases that name each other included *)
From RT Require Import Model.Rbs2Json.

Fixpoint rsize (t : rtype) : nat :=
  let 'RT _ _ args inner types _ := t in
  S ((fix go (l : list rtype) : nat := match l with [] => 0 | x :: r => rsize x + go r end) args
     + match inner with Some i => rsize i | None => 0 end
     + (fix go (l : list rtype) : nat := match l with [] => 0 | x :: r => rsize x + go r end) types).
Fixpoint lsize (l : list rtype) : nat := match l with [] => 0 | x :: r => rsize x + lsize r end.
Fixpoint asize (al : list (string * rtype)) : nat := match al with [] => 0 | (_, v) :: r => rsize v + asize r end.

Lemma rsize_eq c n args inner types lit :
  rsize (RT c n args inner types lit) = S (lsize args + match inner with Some i => rsize i | None => 0 end + lsize types).
Proof. reflexivity. Qed.

Lemma alias_remove_size al k : asize (alias_remove al k) <= asize al.
Proof. induction al as [|[k' v] r IH]; cbn [alias_remove asize]; [lia|]. destruct (String.eqb k k'); cbn [asize]; lia. Qed.
Lemma alias_get_size al k r : alias_get al k = Some r -> rsize r + asize (alias_remove al k) <= asize al.
Proof.
  induction al as [|[k' v] t IH]; cbn [alias_get alias_remove asize]; [discriminate|].
  destruct (String.eqb k k').
  - intros [= <-]. pose proof (alias_remove_size t k). lia.
  - intros H. specialize (IH H). cbn [asize]. lia.
Qed.

Lemma if_defined {A} (c : bool) (x y : option A) : x <> None -> y <> None -> (if c then x else y) <> None.
Proof. destruct c; trivial. Qed.

(* convertType is a tree of conditionals whose leaves are `Some _`, except at its five recursive calls *)
Theorem convert_type_total f : forall al cname t, rsize t + asize al < f -> convert_type f al cname t <> None.
Proof.
  induction f as [|f IH]; intros al cname t Hf; [lia|].
  destruct t as [cls name args inner types lit]. rewrite rsize_eq in Hf. cbn [convert_type].
  repeat apply if_defined; try discriminate.
  - (* Array[T] *)
    destruct args as [|a r]; [discriminate|]. cbn [lsize] in Hf.
    pose proof (IH al cname a ltac:(lia)) as Ha. destruct (convert_type f al cname a) as [[|x [|y l]]|]; try discriminate. congruence.
  - (* optional *)
    destruct inner as [i|]; [|discriminate].
    pose proof (IH al cname i ltac:(lia)) as Hi. destruct (convert_type f al cname i); [discriminate | congruence].
  - (* union: the fold stays defined from any accumulator *)
    assert (Ht : lsize types + asize al < f) by lia. clear Hf.
    generalize (@nil string). induction types as [|u r IHr]; intros acc; cbn [fold_left]; [discriminate|].
    cbn [lsize] in Ht. pose proof (IH al cname u ltac:(lia)) as Hu.
    destruct (convert_type f al cname u); [apply IHr; lia | congruence].
  - (* a declared alias *)
    destruct (alias_get al name) as [r|] eqn:Eg; [|discriminate].
    apply IH. pose proof (alias_get_size al name r Eg). lia.
  - (* intersection *)
    destruct types as [|x r]; [discriminate|]. cbn [lsize] in Hf. apply IH. lia.
Qed.
