(* Obligations over the regenerated tables (Generated.v): the hand-written model constants are the
   ones the current source declares.  Each is a finite fact re-proved by vm_compute on every run. *)
From Coq Require Import String.
From RT Require Import Model.Parser Generated.
Open Scope N_scope.

Definition subset (a b : list N) : bool := forallb (fun c => existsb (N.eqb c) b) a.
Definition same_set (a b : list N) : bool := subset a b && subset b a.

(* lexer.Advance's single-rune token clause *)
Lemma tbl_single_tokens : same_set single_tokens lexer_single_tokens = true /\ lexer_emits_dot = true.
Proof. vm_compute. split; reflexivity. Qed.

(* parser.Read's punctuation clause (repaired code: includes the backtick) *)
Lemma tbl_read_puncts : same_set (ch_btick :: read_puncts) parser_puncts = true.
Proof. vm_compute. reflexivity. Qed.

(* every rune the lexer can emit as its own token is accepted by parser.Read *)
Lemma tbl_lexer_subset_parser : subset (ch_dot :: lexer_single_tokens) parser_puncts = true.
Proof. vm_compute. reflexivity. Qed.

(* isIdentifierChar's excluded runes *)
Definition model_ident_nonchars : list N :=
  [ch_nl; ch_lp; ch_rp; ch_comma; ch_dot; ch_lc; ch_rc; ch_eq; ch_lb; ch_rb; ch_bar; ch_amp; ch_caret; ch_semi; 0].
Lemma tbl_ident_nonchars : same_set model_ident_nonchars ident_nonchars = true.
Proof. vm_compute. reflexivity. Qed.

Lemma tbl_reserved : reserved_words = [("nil"%string, "base.NIL"%string)].
Proof. vm_compute. reflexivity. Qed.

Lemma tbl_token_consts :
  forallb (fun kv => match kv with
                     | ("EOS"%string, v) => Z.eqb v T_EOS | ("NIL"%string, v) => Z.eqb v T_NIL
                     | ("INT"%string, v) => Z.eqb v T_INT | ("UNKNOWN"%string, v) => Z.eqb v T_UNKNOWN
                     | ("STRING"%string, v) => Z.eqb v T_STRING | ("FLOAT"%string, v) => Z.eqb v T_FLOAT
                     | _ => true end) token_consts = true.
Proof. vm_compute. reflexivity. Qed.

(* Go's unicode tables satisfy what the lexer theorems assume of them *)
Lemma go_space_0 : go_is_space 0 = false. Proof. vm_compute. reflexivity. Qed.
Lemma go_digit_0 : go_is_digit 0 = false. Proof. vm_compute. reflexivity. Qed.
Lemma go_space_dot : go_is_space ch_dot = false. Proof. vm_compute. reflexivity. Qed.
Lemma go_digit_plain : forall c, go_is_digit c = true ->
  ((c =? 120) || (c =? 111) || (c =? 98)) = false /\ (c =? ch_under) = false /\ (c =? ch_dot) = false.
Proof.
  intros c Hc.
  assert (H : forall k, go_is_digit k = false -> (c =? k) = false).
  { intros k Hk. destruct (c =? k) eqn:E; [|reflexivity]. apply N.eqb_eq in E. congruence. }
  rewrite (H 120), (H 111), (H 98), (H ch_under), (H ch_dot) by (vm_compute; reflexivity).
  repeat split.
Qed.

(* every type tag the source declares has a case in TypeToString (no `type convert error`), and the model's tag
   type has exactly the declared tags *)
Definition tag_name (t : Model.Ty.tag) : string :=
  match t with
  | Model.Ty.NIL => "NIL" | Model.Ty.INT => "INT" | Model.Ty.UNKNOWN => "UNKNOWN" | Model.Ty.STRING => "STRING"
  | Model.Ty.BOOL => "BOOL" | Model.Ty.FLOAT => "FLOAT" | Model.Ty.UNTYPED => "UNTYPED" | Model.Ty.ARRAY => "ARRAY"
  | Model.Ty.HASH => "HASH" | Model.Ty.UNION => "UNION" | Model.Ty.OBJECT => "OBJECT" | Model.Ty.BLOCK => "BLOCK"
  | Model.Ty.CLASS => "CLASS" | Model.Ty.SELF => "SELF" | Model.Ty.SYMBOL => "SYMBOL" | Model.Ty.KEYVALUE => "KEYVALUE"
  | Model.Ty.CONST => "CONST" | Model.Ty.RANGE => "RANGE" | Model.Ty.UNIFY => "UNIFY"
  | Model.Ty.OPTIONAL_UNIFY => "OPTIONAL_UNIFY" | Model.Ty.BLOCK_RESULT_ARRAY => "BLOCK_RESULT_ARRAY"
  | Model.Ty.SELF_ARRAY => "SELF_ARRAY" | Model.Ty.ARGUMENT => "ARGUMENT" | Model.Ty.UNIFY_ARGUMENT => "UNIFY_ARGUMENT"
  | Model.Ty.KEYVALUE_ARRAY => "KEYVALUE_ARRAY" | Model.Ty.FLATTEN => "FLATTEN" | Model.Ty.ITEM => "ITEM"
  | Model.Ty.OWNER => "OWNER"
  end.

Lemma tbl_type_tags :
  type_const_names = "EOS"%string :: map tag_name Model.Ty.all_tags /\
  forallb (fun n => existsb (String.eqb n) type_to_string_cases) (map tag_name Model.Ty.all_tags) = true.
Proof. vm_compute. split; reflexivity. Qed.
