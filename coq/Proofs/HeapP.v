(* C12: no write of a call reaches a cell that existed before the call (the table's cells in particular) *)
From RT Require Import Model.Heap.

Lemma hget_hset_other h r v r' : r' <> r -> hget (hset h r v) r' = hget h r'.
Proof. intros H. unfold hget; cbn. destruct (Nat.eqb r r') eqn:E; [apply Nat.eqb_eq in E; congruence | reflexivity]. Qed.
Lemma hget_alloc_other h v r' : r' < next h -> hget (fst (alloc h v)) r' = hget h r'.
Proof. intros H. unfold hget; cbn. destruct (Nat.eqb (next h) r') eqn:E; [apply Nat.eqb_eq in E; lia | reflexivity]. Qed.
Lemma next_alloc h v : next (fst (alloc h v)) = S (next h) /\ snd (alloc h v) = next h. Proof. split; reflexivity. Qed.
Lemma next_hset h r v : next (hset h r v) = next h. Proof. reflexivity. Qed.

(* preserved n h h': the heap grew, and every cell below n is as it was *)
Definition preserved (n : nat) (h h' : heap) : Prop := next h <= next h' /\ forall r, r < n -> hget h' r = hget h r.
Lemma preserved_refl n h : preserved n h h. Proof. split; [lia | reflexivity]. Qed.
Lemma preserved_trans n a b c : preserved n a b -> preserved n b c -> preserved n a c.
Proof. intros [H1 H2] [H3 H4]. split; [lia|]. intros r Hr. rewrite H4, H2 by exact Hr. reflexivity. Qed.
Lemma preserved_alloc n h v : n <= next h -> preserved n h (fst (alloc h v)).
Proof. intros H. split; [cbn; lia|]. intros r Hr. apply hget_alloc_other. lia. Qed.
Lemma preserved_hset n h r v : n <= r -> preserved n h (hset h r v).
Proof. intros H. split; [cbn; lia|]. intros r' Hr. apply hget_hset_other. lia. Qed.

(* h0 is the heap a call starts from.  A state of one of the two loops below — a heap and the references the loop
   holds — is safe when the cells of h0 are as they were and no reference held is to one of them: a write through such
   a reference does not reach h0, and a cell allocated now is not one of h0's. *)
Definition safe (h0 : heap) {X} (ok : X -> Prop) (s : heap * X) : Prop := preserved (next h0) h0 (fst s) /\ ok (snd s).

Section Safe.
  Context {h0 : heap} {X : Type} {ok : X -> Prop}.

  Lemma hset_safe {h r v x} : safe h0 ok (h, x) -> next h0 <= r -> safe h0 ok (hset h r v, x).
  Proof. intros [L K] Hr. split; [exact (preserved_trans _ _ _ _ L (preserved_hset _ _ _ _ Hr)) | exact K]. Qed.

  (* k r: what the loop holds once it has the new reference *)
  Lemma alloc_safe {h v x} (k : ref -> X) : safe h0 ok (h, x) -> (forall r, next h0 <= r -> ok (k r)) ->
    safe h0 ok (let '(h', r) := alloc h v in (h', k r)).
  Proof.
    intros [L _] K. split; [|exact (K _ (proj1 L))].
    exact (preserved_trans _ _ _ _ L (preserved_alloc _ _ _ (proj1 L))).
  Qed.

  Lemma fold_safe {S} (step : heap * X -> S -> heap * X) :
    (forall s x, safe h0 ok s -> safe h0 ok (step s x)) -> forall l s, safe h0 ok s -> safe h0 ok (fold_left step l s).
  Proof. intros H l; induction l as [|x l IH]; intros s Hs; [exact Hs | exact (IH _ (H _ _ Hs))]. Qed.
End Safe.

(* the accumulator of the repaired code is always a cell allocated during the call *)
Definition acc_ok (h0 : heap) (acc : option ref) : Prop := match acc with Some r => next h0 <= r | None => True end.

Section Union.
  Variables (append : ty -> ty -> ty) (matches : ty -> ty -> bool).

  Lemma union_step_safe h0 s mt : safe h0 (acc_ok h0) s -> safe h0 (acc_ok h0) (union_step fixed_heap append matches s mt).
  Proof.
    destruct s as [h [r|]]; intros Hs; unfold union_step; [|exact (alloc_safe Some Hs (fun _ H => H))].
    destruct (is_union_type (hget h r)); [exact (hset_safe Hs (proj2 Hs))|].
    destruct (is_union_type (hget h mt)).
    - pose proof (alloc_safe (v := hget h mt) Some Hs (fun _ H => H)) as H1.
      exact (alloc_safe Some (hset_safe H1 (proj2 H1)) (fun _ H => H)).
    - destruct (negb (matches (hget h r) (hget h mt))); [exact (alloc_safe Some Hs (fun _ H => H)) | exact Hs].
  Qed.

  Theorem union_accumulate_safe h mts : safe h (acc_ok h) (union_accumulate fixed_heap append matches h mts).
  Proof. apply fold_safe; [intros s mt; apply union_step_safe | exact (conj (preserved_refl _ _) I)]. Qed.
End Union.

(* destructive binding and assignment: every variable is bound to a cell allocated during the call *)
Definition env_ok (h0 : heap) (e : env) : Prop := forall x r, env_get e x = Some r -> next h0 <= r.

Lemma env_ok_cons h0 e x r : env_ok h0 e -> next h0 <= r -> env_ok h0 ((x, r) :: e).
Proof. intros He Hr y r'. cbn [env_get]. destruct (String.eqb x y); [intros [= <-]; exact Hr | apply He]. Qed.

Lemma run_stmt_safe h0 st s : safe h0 (env_ok h0) st -> safe h0 (env_ok h0) (run_stmt fixed_heap st s).
Proof.
  destruct st as [h e]; intros Hs. pose proof (proj2 Hs : env_ok h0 e) as He.
  assert (Bind : forall x r, next h0 <= r -> env_ok h0 ((x, r) :: e)) by (intros x r; apply env_ok_cons, He).
  destruct s as [x v | x mt copied]; cbn [run_stmt].
  - destruct (env_get e x) as [r|] eqn:E; [exact (hset_safe Hs (He x r E)) | exact (alloc_safe _ Hs (Bind x))].
  - assert (H1 : safe h0 (env_ok h0) (fst (if copied then alloc h (hget h mt) else (h, mt)), e))
      by (destruct copied; [exact (alloc_safe (fun _ => e) Hs (fun _ _ => He)) | exact Hs]).
    destruct (if copied then alloc h (hget h mt) else (h, mt)) as [h1 res]. exact (alloc_safe _ H1 (Bind x)).
Qed.

Theorem run_stmts_safe h ss : safe h (env_ok h) (run_stmts fixed_heap h ss).
Proof. apply fold_safe; [intros st s; apply run_stmt_safe | split; [apply preserved_refl | discriminate]]. Qed.
