(* C17: block locals stay local, shadowed variables get their type back — for every body, nested blocks included *)
From RT Require Import Model.Blocks Proofs.NarrowP.

Section P.
  Variables (A : Type) (nil_t untyped_t : A) (is_unknown : A -> bool).

  Lemma aget_restore (cur snap : venv A) x :
    aget (restore_frame A cur snap) x = if has_key A snap x then aget cur x else None.
  Proof.
    unfold restore_frame. induction cur as [|[k v] r IH]; cbn [filter aget fst]; [destruct (has_key A snap x); reflexivity|].
    destruct (has_key A snap k) eqn:Hk; cbn [aget].
    - destruct (String.eqb_spec x k) as [->|N]; [rewrite Hk; reflexivity | exact IH].
    - destruct (String.eqb_spec x k) as [->|N]; [rewrite Hk in IH |- *; exact IH | exact IH].
  Qed.

  (* binding each name in ps to its f: the last binding of a name wins, and the other names are left alone *)
  Lemma aget_rebind (f : string -> A) ps : forall e x,
    aget (fold_left (fun e pt => aset e (fst pt) (snd pt)) (map (fun p => (p, f p)) ps) e) x
    = if in_dec string_dec x ps then Some (f x) else aget e x.
  Proof.
    induction ps as [|p r IH]; intros e x; cbn [map fold_left fst snd]; [reflexivity|]. rewrite IH.
    destruct (in_dec string_dec x r) as [Hr|Hr], (in_dec string_dec x (p :: r)) as [[->|H]|H]; try reflexivity.
    - destruct H. right. exact Hr.
    - apply aget_aset_same.
    - contradiction.
    - apply aget_aset_other. intros ->. apply H. left. reflexivity.
  Qed.

  (* a block, seen from outside, whatever its body does: a parameter is bound to what it was bound to (Untyped if that
     was nothing known); any other name is bound only if it was, to the type e2 that the body left it with *)
  Lemma exec_blk ps ds body e : exists e2, forall x,
    aget (exec A nil_t untyped_t is_unknown (SBlk A ps ds body) e) x =
    if in_dec string_dec x ps
    then Some (match aget e x with Some t => if is_unknown t then untyped_t else t | None => untyped_t end)
    else if has_key A e x then aget e2 x else None.
  Proof. eexists. intros x. cbn [exec]. rewrite aget_rebind, aget_restore. reflexivity. Qed.

  (* one parameter: it gets the first declared type, NilClass if there is none left *)
  Lemma set_params_cons e p r ds :
    set_params A nil_t e (p :: r) ds true = set_params A nil_t (aset e p (hd nil_t ds)) r (tl ds) true.
  Proof. destruct ds; reflexivity. Qed.

  Lemma set_params_other ps : forall e ds x, ~ In x ps -> aget (set_params A nil_t e ps ds true) x = aget e x.
  Proof.
    induction ps as [|p r IH]; intros e ds x H; [reflexivity|].
    rewrite set_params_cons, IH by (intro; apply H; right; assumption).
    apply aget_aset_other. intros ->. apply H. left. reflexivity.
  Qed.

  (* parameter i has the declared type i, surplus parameters are NilClass *)
  Lemma set_params_spec : forall ps ds e i p, NoDup ps -> nth_error ps i = Some p ->
    aget (set_params A nil_t e ps ds true) p = Some (match nth_error ds i with Some d => d | None => nil_t end).
  Proof.
    induction ps as [|q r IH]; intros ds e i p Hnd Hi; [destruct i; discriminate|].
    inversion Hnd as [|? ? Hq Hr]. rewrite set_params_cons. destruct i as [|i].
    - injection Hi as <-. rewrite (set_params_other _ _ _ _ Hq), aget_aset_same. destruct ds; reflexivity.
    - rewrite (IH _ _ i p Hr Hi). destruct ds; [destruct i|]; reflexivity.
  Qed.
End P.

Section UnionReceiverP.
  Variable A : Type.
  Variable nil_t : A.
  Variable unify : list A -> A.

  Lemma pad_row_length n ds : n <= List.length (pad_row A nil_t n ds).
  Proof. unfold pad_row. rewrite app_length, repeat_length. lia. Qed.

  Lemma pad_row_nth n ds i : i < n -> nth_error (pad_row A nil_t n ds) i = Some (nth i ds nil_t).
  Proof.
    intros H. rewrite (nth_error_nth' _ nil_t) by exact (Nat.lt_le_trans _ _ _ H (pad_row_length n ds)).
    f_equal. unfold pad_row. destruct (Nat.lt_ge_cases i (List.length ds)) as [L|L]; [apply app_nth1; exact L|].
    rewrite app_nth2, nth_repeat, nth_overflow by exact L. reflexivity.
  Qed.

  Lemma column_padded n i rows : i < n ->
    column A i (map (pad_row A nil_t n) rows) = map (fun ds => nth i ds nil_t) rows.
  Proof.
    intros H. unfold column. induction rows as [|r rows IH]; cbn [map flat_map]; [reflexivity|].
    rewrite (pad_row_nth n r i H), IH. reflexivity.
  Qed.

  Lemma fold_max_le l : forall a x, x <= a \/ In x l -> x <= fold_left Nat.max l a.
  Proof.
    induction l as [|y l IH]; intros a x H; [destruct H as [H|[]]; exact H|].
    apply IH. destruct H as [H|[->|H]]; [left; lia | left; lia | right; exact H].
  Qed.

  Lemma widest_padded n rows : rows <> [] -> n <= widest A (map (pad_row A nil_t n) rows).
  Proof.
    destruct rows as [|r rows]; [congruence|]. intros _. unfold widest.
    eapply Nat.le_trans; [apply (pad_row_length n r)|]. apply fold_max_le. right. left. reflexivity.
  Qed.

  (* each of the n block variables gets the union, over the variants of the receiver, of what the variant's method
     declares for that position — NilClass where the variant declares fewer parameters *)
  Theorem union_declared_spec n rows i : rows <> [] -> i < n ->
    nth_error (union_declared A nil_t unify n rows) i = Some (unify (map (fun ds => nth i ds nil_t) rows)).
  Proof.
    intros Hr Hi. unfold union_declared.
    pose proof (widest_padded n rows Hr) as W.
    rewrite nth_error_map. rewrite (nth_error_nth' _ 0) by (rewrite seq_length; lia).
    rewrite seq_nth by lia. cbn [option_map Nat.add]. rewrite (column_padded n i rows Hi). reflexivity.
  Qed.
End UnionReceiverP.
