(* What a method body collects (Model/Returns.v) *)
From RT Require Import Model.Returns.

Section rstmt_ind2.
  Variable P : rstmt -> Prop.
  Hypothesis HE : forall c, P (RExpr c).
  Hypothesis HR : forall c, P (RReturn c).
  Hypothesis HB : forall b v, Forall P b -> P (RBlock b v).
  Hypothesis HL : forall b, Forall P b -> P (RLambda b).
  Fixpoint rstmt_ind2 (s : rstmt) : P s :=
    let all := fix all (l : list rstmt) : Forall P l :=
                 match l with [] => Forall_nil P | x :: r => Forall_cons x (rstmt_ind2 x) (all r) end in
    match s with
    | RExpr c => HE c
    | RReturn c => HR c
    | RBlock b v => HB b v (all b)
    | RLambda b => HL b (all b)
    end.
End rstmt_ind2.

Lemma fold_add_ret_extends xs : forall r, exists ext, fold_left add_ret xs r = r ++ ext.
Proof.
  induction xs as [|x xs IH]; intros r; cbn [fold_left]; [exists []; symmetry; apply app_nil_r|].
  destruct (IH (add_ret r x)) as [ext ->]. unfold add_ret. destruct (existsb (String.eqb x) r); [exists ext; reflexivity|].
  exists ([x] ++ ext). apply app_assoc_reverse.
Qed.

(* a statement ignores the incoming last value and adds exactly its outer returns *)
Definition stmt_spec (s : rstmt) : Prop :=
  forall st, exec_stmt true s st = (fold_left add_ret (outer_returns s) (fst st), value_of s).

Lemma exec_body_of_stmts b : Forall stmt_spec b -> forall st,
  exec_body true b st = (fold_left add_ret (flat_map outer_returns b) (fst st), match rev b with [] => snd st | s :: _ => value_of s end).
Proof.
  unfold exec_body. induction 1 as [|x b Hx _ IH]; intros st; cbn [fold_left flat_map rev]; [destruct st; reflexivity|].
  rewrite Hx, IH, fold_left_app. destruct (rev b); reflexivity.
Qed.

Lemma exec_stmt_spec s : stmt_spec s.
Proof.
  induction s as [c|c|b v IH|b IH] using rstmt_ind2; intros st; cbn [exec_stmt outer_returns value_of fold_left]; try reflexivity;
    fold (exec_body true b st); rewrite (exec_body_of_stmts b IH); cbn [fst]; [reflexivity|].
  (* the lambda: add_ret only appends, so cutting the list back to its old length drops what the body added *)
  destruct (fold_add_ret_extends (flat_map outer_returns b) (fst st)) as [ext ->].
  rewrite firstn_app, firstn_all, Nat.sub_diag, app_nil_r. reflexivity.
Qed.

Lemma method_type_spec body :
  method_type true body = add_ret (fold_left add_ret (flat_map outer_returns body) []) (last_value body).
Proof.
  unfold method_type, last_value. rewrite exec_body_of_stmts by (apply Forall_forall; intros s _; apply exec_stmt_spec). reflexivity.
Qed.

Lemma in_add_ret r c x : In x (add_ret r c) <-> In x r \/ x = c.
Proof.
  unfold add_ret. destruct (existsb (String.eqb c) r) eqn:E.
  - split; [left; assumption|]. intros [H | ->]; [exact H|]. apply existsb_exists in E as [y [Hy Ey]].
    apply String.eqb_eq in Ey. subst y. exact Hy.
  - rewrite in_app_iff. cbn [In]. intuition congruence.
Qed.

Lemma in_fold_add_ret xs : forall r x, In x (fold_left add_ret xs r) <-> In x r \/ In x xs.
Proof.
  induction xs as [|c xs IH]; intros r x; cbn [fold_left In]; [tauto|]. rewrite IH, in_add_ret. intuition congruence.
Qed.

(* C15: the type of a call is exactly the body's last value and the returns written outside lambdas *)
Theorem method_type_exact body x :
  In x (method_type true body) <-> In x (flat_map outer_returns body) \/ x = last_value body.
Proof. rewrite method_type_spec, in_add_ret, in_fold_add_ret. cbn [In]. tauto. Qed.

(* C11: a lambda leaves the list of returns as it found it *)
Theorem lambda_is_local b r l : exec_stmt true (RLambda b) (r, l) = (r, "Proc").
Proof. rewrite exec_stmt_spec. reflexivity. Qed.

Lemma ins_lambda_returns lb b b' : ins (RLambda lb) b b' -> flat_map outer_returns b' = flat_map outer_returns b.
Proof.
  induction 1 as [pre post | pre b b' v post _ IH | pre b b' post _ IH]; rewrite !flat_map_app; cbn [flat_map outer_returns app];
    [|rewrite IH|]; reflexivity.
Qed.

Lemma last_value_app pre post : post <> [] -> last_value (pre ++ post) = last_value post.
Proof.
  intros H. unfold last_value. rewrite rev_app_distr. destruct (rev post) as [|s t] eqn:E; [|reflexivity].
  apply (f_equal (@rev _)) in E. rewrite rev_involutive in E. contradiction.
Qed.

(* inserting a lambda — whatever its body returns — anywhere before the last statement of a method body, at any
   depth of blocks, leaves the type of the method unchanged *)
Theorem lambda_insertion lb pre pre' post : ins (RLambda lb) pre pre' -> post <> [] ->
  method_type true (pre' ++ post) = method_type true (pre ++ post).
Proof.
  intros Hi Hp. rewrite !method_type_spec, !flat_map_app, (ins_lambda_returns lb pre pre' Hi), !last_value_app by exact Hp. reflexivity.
Qed.
