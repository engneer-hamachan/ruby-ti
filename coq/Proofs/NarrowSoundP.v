(* elsif chains of single tests of either polarity: narrowing is SOUND — no branch loses a variant that can reach it.
   A corollary of what the branches see exactly (NarrowElsifP.v). *)
From RT Require Import Model.Narrow Proofs.NarrowP Proofs.NarrowElsifP.

(* the test holds of a value of class v *)
Definition holds (t : test) (v : cls) : bool := if t_neg t then negb (String.eqb v (t_cls t)) else String.eqb v (t_cls t).
(* some test of pre on x holds of v: an earlier branch has taken v *)
Definition taken_by (pre : list test) (x : string) (v : cls) : bool :=
  existsb (fun t => String.eqb x (t_var t) && holds t v) pre.

(* whatever narrowTs holds for y, some test on y has taken *)
Lemma excluded_taken e0 pre y v : In v (excluded e0 pre y) -> taken_by pre y v = true.
Proof.
  unfold taken_by. induction pre as [|t pre IH] using rev_ind; [intros []|].
  rewrite excluded_snoc, existsb_app, Bool.orb_true_iff. cbn [existsb]. rewrite Bool.orb_false_r.
  intros H. destruct (String.eqb y (t_var t)); [|left; exact (IH H)]. unfold exclude, positive, holds in *. destruct (t_neg t).
  - right. apply in_minus in H as [_ H]. destruct (String.eqb_spec v (t_cls t)) as [->|]; [destruct H; left|]; reflexivity.
  - apply in_app_or in H as [H|[<-|[]]]; [left; exact (IH H) | right; apply String.eqb_refl].
Qed.

(* what no branch has taken is still there *)
Lemma untaken_left e0 pre y v : In v (ty_of e0 y) -> taken_by pre y v = false -> In v (minus (ty_of e0 y) (excluded e0 pre y)).
Proof.
  intros Hv Ht. apply in_minus. split; [exact Hv|]. intros H. rewrite (excluded_taken _ _ _ _ H) in Ht. discriminate.
Qed.

(* branch of test t after the tests of pre: nothing that can reach it is missing *)
Definition BranchSound (e0 : env) (pre : list test) (t : test) (b : env) : Prop :=
  forall y v, In v (ty_of e0 y) -> taken_by pre y v = false -> (y = t_var t -> holds t v = true) -> In v (ty_of b y).

Fixpoint branches_sound (e0 : env) (pre ts : list test) (brs : list env) : Prop :=
  match ts, brs with
  | [], [] => True
  | t :: r, b :: br => BranchSound e0 pre t b /\ branches_sound e0 (pre ++ [t]) r br
  | _, _ => False
  end.

Lemma sees_sound e0 ts : forall pre brs, branches_see e0 pre ts brs -> branches_sound e0 pre ts brs.
Proof.
  induction ts as [|t r IH]; intros pre [|b br]; try exact (fun H => H).
  intros [S B]. split; [|exact (IH _ _ B)]. intros y v Hv Ht Hh. rewrite (S y).
  pose proof (untaken_left _ _ _ _ Hv Ht) as Hl.
  destruct (String.eqb_spec y (t_var t)) as [->|N]; [|exact Hl]. specialize (Hh eq_refl).
  unfold holds, admit_then, positive in *. destruct (t_neg t).
  - apply in_minus. split; [exact Hl|]. intros [<-|[]]. rewrite String.eqb_refl in Hh. discriminate.
  - apply String.eqb_eq in Hh. left. symmetry. exact Hh.
Qed.
