(* C16, C27: the ancestor walk of method lookup on one inheritance map.  An edge leads a search to at most one node,
   searched in one way ([child]); the step of the walk and Ruby's lookup are both read in these terms.  The walk
   terminates on every map (cycles included), answers only with a class or module that Ruby's lookup reaches, consults
   the map at unvisited nodes only, and — on maps in which each node is searched in one way only (classes for the kind
   of method asked for, modules for their instance methods) — answers whenever Ruby's lookup reaches anything. *)
From RT Require Import Model.Lookup Proofs.SuggestP.

Section Loop.
  Context {A : Type}.
  Implicit Types (step : A -> list node -> option (option node * list node)) (ps : list A).

  Lemma first_found_hit step ps :
    forall uv, first_found step ps uv = first_hit (fun r : option node => if r then true else false) None step ps uv.
  Proof.
    induction ps as [|p r IH]; intros uv; cbn [first_found first_hit]; [reflexivity|].
    destruct (step p uv) as [[[x|] uv']|]; [reflexivity | apply IH | reflexivity].
  Qed.

  Lemma first_found_incl step :
    (forall p uv r uv', step p uv = Some (r, uv') -> incl uv' uv) ->
    forall ps uv r uv', first_found step ps uv = Some (r, uv') -> incl uv' uv.
  Proof.
    intros Hs ps; induction ps as [|p q IH]; intros uv r uv'; cbn [first_found].
    - intros [= _ <-]. apply incl_refl.
    - destruct (step p uv) as [[[x|] uv1]|] eqn:E; [| |discriminate].
      + intros [= _ <-]. exact (Hs _ _ _ _ E).
      + intros H. exact (incl_tran (IH _ _ _ H) (Hs _ _ _ _ E)).
  Qed.

  (* two loops whose steps agree on the sets of unvisited nodes that occur *)
  Lemma first_found_ext step step' (Q : list node -> Prop) :
    (forall p uv, Q uv -> step' p uv = step p uv /\ forall r uv', step p uv = Some (r, uv') -> Q uv') ->
    forall ps uv, Q uv -> first_found step' ps uv = first_found step ps uv.
  Proof.
    intros H ps; induction ps as [|p r IH]; intros uv Hq; cbn [first_found]; [reflexivity|].
    destruct (H p uv Hq) as [-> HQ]. destruct (step p uv) as [[[x|] uv1]|]; try reflexivity. exact (IH _ (HQ _ _ eq_refl)).
  Qed.
End Loop.

Section C.
  Variables (has : node -> bool -> bool) (builtin : list string) (m : inh_map).

  (* what an edge leads to, for a search of class methods (st) / instance methods: the node and how it is searched *)
  Definition child (st : bool) (p : pnode) : option (node * bool) :=
    if pn_extend p then (if st then Some (norm builtin (pn_node p), false) else None)
    else if pn_include p then (if st then None else Some (norm builtin (pn_node p), false))
    else Some (pn_node p, st).

  Lemma child_super st p : pn_extend p = false -> pn_include p = false -> child st p = Some (pn_node p, st).
  Proof. unfold child. intros -> ->. reflexivity. Qed.
  Lemma child_include p : pn_extend p = false -> pn_include p = true -> child false p = Some (norm builtin (pn_node p), false).
  Proof. unfold child. intros -> ->. reflexivity. Qed.
  Lemma child_extend p : pn_extend p = true -> child true p = Some (norm builtin (pn_node p), false).
  Proof. unfold child. intros ->. reflexivity. Qed.

  Lemma lstep_child rec st p uv :
    lstep has builtin rec st p uv =
    match child st p with
    | None => Some (None, uv)
    | Some (c, cm) => if has c cm then Some (Some c, uv) else rec cm uv c
    end.
  Proof.
    unfold lstep, child. destruct (pn_extend p).
    - destruct st; [rewrite andb_true_r; reflexivity | rewrite andb_false_r; reflexivity].
    - destruct (pn_include p).
      + destruct st; [rewrite andb_false_r; reflexivity | rewrite andb_true_r; reflexivity].
      + reflexivity.
  Qed.

  (* Ruby's lookup, edge by edge *)
  Inductive reaches : bool -> node -> node -> Prop :=
  | r_here st n p c cm : In p (parents_of m n) -> child st p = Some (c, cm) -> has c cm = true -> reaches st n c
  | r_up st n p c cm x : In p (parents_of m n) -> child st p = Some (c, cm) -> reaches cm c x -> reaches st n x.

  Lemma answers_child st n p c cm : In p (parents_of m n) -> child st p = Some (c, cm) ->
    (has c cm = true -> answers has builtin m st n c) /\ (forall x, answers has builtin m cm c x -> answers has builtin m st n x).
  Proof.
    intros Hp. unfold child.
    destruct (pn_extend p) eqn:He; [|destruct (pn_include p) eqn:Hi]; [destruct st | destruct st |]; intros [= <- <-].
    - split; [apply a_extend | intros x; apply a_extend_up]; assumption.
    - split; [apply a_include | intros x; apply a_include_up]; assumption.
    - split; [apply a_super | intros x; apply a_super_up]; assumption.
  Qed.

  Theorem answers_reaches st n x : answers has builtin m st n x <-> reaches st n x.
  Proof.
    split.
    - (* each constructor of answers is r_here or r_up through the child_* equation of its kind of edge *)
      induction 1; eauto using r_here, r_up, child_super, child_include, child_extend.
    - induction 1 as [st n p c cm Hp Hc Hh | st n p c cm x Hp Hc _ IH].
      + exact (proj1 (answers_child _ _ _ _ _ Hp Hc) Hh).
      + exact (proj2 (answers_child _ _ _ _ _ Hp Hc) x IH).
  Qed.

  Lemma plookup_total f : forall static uv n, List.length uv < f -> ends_within uv (plookup has builtin f m static uv n).
  Proof.
    induction f as [|f IH]; intros st uv n Hf; [inversion Hf|]. cbn [plookup].
    destruct (mem_fc n uv) eqn:Hm; [|apply ends_within_refl].
    rewrite first_found_hit. apply (expand_total _ _ _ _ _ _ _ Hm Hf). intros p uv1 H1. rewrite lstep_child.
    destruct (child st p) as [[c cm]|]; [destruct (has c cm); [|exact (IH _ _ _ H1)]|]; apply ends_within_refl.
  Qed.

  Lemma plookup_sound f : forall static uv n x uv',
    plookup has builtin f m static uv n = Some (Some x, uv') -> reaches static n x.
  Proof.
    induction f as [|f IH]; intros st uv n x uv'; cbn [plookup]; [discriminate|].
    destruct (mem_fc n uv); cbn [negb]; [|discriminate].
    rewrite first_found_hit. intros H.
    destruct (first_hit_result _ _ _ _ _ _ _ H) as [[=] | (p & uv1 & Hp & Hs)]. rewrite lstep_child in Hs.
    destruct (child st p) as [[c cm]|] eqn:Ec; [|discriminate]. destruct (has c cm) eqn:Eh.
    - injection Hs as <- _. exact (r_here _ _ _ _ _ Hp Ec Eh).
    - exact (r_up _ _ _ _ _ _ Hp Ec (IH _ _ _ _ _ Hs)).
  Qed.

  Lemma lstep_incl rec st p uv r uv' :
    (forall cm u c r u', rec cm u c = Some (r, u') -> incl u' u) ->
    lstep has builtin rec st p uv = Some (r, uv') -> incl uv' uv.
  Proof.
    intros Hr. rewrite lstep_child.
    destruct (child st p) as [[c cm]|]; [destruct (has c cm); [|apply Hr]|]; intros [= _ <-]; apply incl_refl.
  Qed.

  Lemma plookup_incl f : forall static uv n r uv', plookup has builtin f m static uv n = Some (r, uv') -> incl uv' uv.
  Proof.
    induction f as [|f IH]; intros st uv n r uv'; cbn [plookup]; [discriminate|].
    destruct (mem_fc n uv); cbn [negb]; [|intros [= _ <-]; apply incl_refl].
    intros H. apply (first_found_incl _ (fun p u r1 u' => lstep_incl _ st p u r1 u' IH)) in H.
    exact (incl_tran H (remove_incl n uv)).
  Qed.

  (* C27: the walk consults the map at unvisited nodes only *)
  Theorem plookup_ext m' f : forall static uv n, (forall x, In x uv -> parents_of m' x = parents_of m x) ->
    plookup has builtin f m' static uv n = plookup has builtin f m static uv n.
  Proof.
    induction f as [|f IH]; intros st uv n Hd; cbn [plookup]; [reflexivity|].
    destruct (mem_fc n uv) eqn:Hm; cbn [negb]; [|reflexivity].
    rewrite (Hd n) by (apply mem_fc_in; exact Hm).
    apply first_found_ext with (Q := fun u => incl u uv).
    - intros p u Hu. split.
      + rewrite !lstep_child. destruct (child st p) as [[c cm]|]; [|reflexivity].
        destruct (has c cm); [reflexivity|]. apply IH. intros x Hx. apply Hd, Hu, Hx.
      + intros r u' E. exact (incl_tran (lstep_incl _ _ _ _ _ _ (plookup_incl f) E) Hu).
    - apply remove_incl.
  Qed.

  (* classes and edges registered under nodes that the walk cannot meet change nothing *)
  Theorem plookup_decoy d f static uv n : (forall x, In x uv -> ~ In x (map fst d)) ->
    plookup has builtin f (m ++ d) static uv n = plookup has builtin f m static uv n.
  Proof. intros Hd. apply plookup_ext. intros x Hx. apply parents_of_app, Hd, Hx. Qed.

  (* Completeness.  The visited set is keyed by the node alone: a node met again is not searched again, whatever kind
     of method is asked for then.  That loses nothing when every node is searched in one way only (moded_map).  The
     invariant is that of a depth-first search: a walk that answers nothing leaves every edge of each node it has
     visited barren — it leads neither to a definition of the method nor to an unvisited node — so that nothing is
     reached from such a node. *)
  Variable mode_of : node -> bool.
  Definition moded_map : Prop :=
    forall n p c cm, In p (parents_of m n) -> child (mode_of n) p = Some (c, cm) -> mode_of c = cm.

  Definition barren (uv : list node) (n : node) (p : pnode) : Prop :=
    forall c cm, child (mode_of n) p = Some (c, cm) -> has c cm = false /\ ~ In c uv.

  Lemma barren_incl a b n p : incl b a -> barren a n p -> barren b n p.
  Proof. intros S B c cm Hc. destruct (B c cm Hc) as [H1 H2]. split; [exact H1 | intro H; exact (H2 (S _ H))]. Qed.

  Lemma plookup_none f : moded_map -> forall uv n uv',
    plookup has builtin f m (mode_of n) uv n = Some (None, uv') -> stretch m barren uv uv' /\ ~ In n uv'.
  Proof.
    intros WM. induction f as [|f IH]; intros uv n uv'; cbn [plookup]; [discriminate|].
    destruct (mem_fc n uv) eqn:Hn; cbn [negb].
    - rewrite first_found_hit. intros H. apply (first_hit_miss m barren barren_incl) with (n := n) in H; [| |reflexivity].
      + destruct H as [T C]. exact (stretch_expand _ _ _ _ _ T C).
      + intros p u [y|] u' Hp Hs Hy; [discriminate|]. rewrite lstep_child in Hs. unfold barren.
        destruct (child (mode_of n) p) as [[c cm]|] eqn:Ec.
        * destruct (has c cm) eqn:Eh; [discriminate|]. rewrite <- (WM n p c cm Hp Ec) in Hs.
          destruct (IH _ _ _ Hs) as [T1 M1]. split; [exact T1|]. intros c' cm' [= <- <-]. split; assumption.
        * injection Hs as <-. split; [apply stretch_refl | discriminate].
    - intros [= <-]. split; [apply stretch_refl | apply mem_fc_false, Hn].
  Qed.

  (* uv: any set of unvisited nodes that holds n and, with a node, the nodes its edges lead to *)
  Theorem plookup_complete f uv n uv' : moded_map -> In n uv ->
    (forall x p c cm, In x uv -> In p (parents_of m x) -> child (mode_of x) p = Some (c, cm) -> In c uv) ->
    plookup has builtin f m (mode_of n) uv n = Some (None, uv') -> forall x, ~ reaches (mode_of n) n x.
  Proof.
    intros WM Hn Huv H x R. destruct (plookup_none f WM _ _ _ H) as [[_ C] Hn']. clear H.
    remember (mode_of n) as st eqn:Hst. revert Hst Hn Hn'.
    induction R as [st y p c cm Hp Hc Hh | st y p c cm z Hp Hc _ IH]; intros -> Hy Hy'.
    - destruct (C y Hy Hy' p Hp c cm Hc) as [E _]. congruence.
    - destruct (C y Hy Hy' p Hp c cm Hc) as [_ Hc'].
      exact (IH (eq_sym (WM y p c cm Hp Hc)) (Huv y p c cm Hy Hp Hc) Hc').
  Qed.

  Lemma child_in_universe start x p c cm st : In p (parents_of m x) -> child st p = Some (c, cm) -> In c (universe m start).
  Proof.
    intros Hp Hc. pose proof (universe_parent m builtin start x p Hp) as Hn.
    pose proof (universe_parent m [] start x p Hp) as Hr. rewrite norm_nil in Hr.
    unfold child in Hc. destruct (pn_extend p); [|destruct (pn_include p)]; [destruct st | destruct st |];
      try discriminate; injection Hc as <- _; assumption.
  Qed.

  Corollary plookup_complete_universe n uv' : moded_map ->
    plookup has builtin (S (List.length (universe m n))) m (mode_of n) (universe m n) n = Some (None, uv') ->
    forall x, ~ reaches (mode_of n) n x.
  Proof.
    intros WM. apply plookup_complete; [exact WM | left; reflexivity|].
    intros x p c cm _. apply child_in_universe.
  Qed.
End C.
