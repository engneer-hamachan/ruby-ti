(* One round of call sites on a parameter of a user-defined method (Model/Propagate.v).  From ANY inferred state left by
   earlier rounds the parameter afterwards admits the argument of every call site of the round; from a parameter nothing is
   known about it holds exactly the distinct argument types *)
From RT Require Import Model.Propagate Model.Infer Proofs.InferP Proofs.PropagateP.

Definition admits_arg (dt a : ty) : bool := existsb (fun v => is_match_type v a) (variants_or_self dt).
Definition covered (e : option pentry) (a : ty) : Prop := match e with Some (dt, _) => admits_arg dt a = true | None => False end.

Lemma scalar_tag t : scalar t = true -> tag_is UNION t = false.
Proof. exact (scalar_not_union t). Qed.

(* the shape of a parameter type that call sites have inferred *)
Definition wf_ty (dt : ty) : Prop :=
  is_builtin dt = false /\ tag_is UNKNOWN dt = false /\ is_inferred dt = true /\ has_default dt = false /\
  (scalar dt = true \/ (is_union_type dt = true /\ 2 <= List.length (t_vars dt) /\ forallb scalar (t_vars dt) = true)).

Lemma wf_scalar dt : wf_ty dt -> is_union_type dt = false -> scalar dt = true.
Proof. intros (_ & _ & _ & _ & [H|[H _]]) E; [exact H | congruence]. Qed.

Lemma wf_union dt : wf_ty dt -> is_union_type dt = true -> 2 <= List.length (t_vars dt) /\ forallb scalar (t_vars dt) = true.
Proof. intros (_ & _ & _ & _ & [H|[_ H]]) E; [rewrite (scalar_not_union dt H) in E; discriminate | exact H]. Qed.

(* the three ways a call site leaves such a type: its own argument, a union with one more variant, a union of two *)
Lemma wf_fresh a : arg_ok a = true -> wf_ty (set_inf a true) /\ variants_or_self (set_inf a true) = [set_inf a true].
Proof.
  intros H. destruct (arg_ok_parts a H) as (S & U & B & D). rewrite variants_scalar by (rewrite scalar_set_inf; exact S).
  unfold wf_ty, tag_is. rewrite set_inf_bi, set_inf_tag, set_inf_inf, set_inf_hd, scalar_set_inf. auto 7.
Qed.

(* the argument is of a type the parameter holds already, as T.AppendVariant and propagate see it *)
Definition absorbs (dt a : ty) : bool :=
  if is_union_type dt then existsb (fun v => same_kind v a) (t_vars dt) else is_match_type dt a.

Lemma wf_append dt a : wf_ty dt -> is_union_type dt = true -> scalar a = true ->
  wf_ty (AppendVariant dt a) /\ is_union_type (AppendVariant dt a) = true /\
  variants_or_self (AppendVariant dt a) = if absorbs dt a then variants_or_self dt else variants_or_self dt ++ [a].
Proof.
  intros W E S. unfold absorbs. rewrite (AppendVariant_scalar dt a E S), E.
  destruct (existsb _ (t_vars dt)); [rewrite (variants_union dt E); auto|].
  destruct (wf_union dt W E) as [L Sv]. destruct W as (B & U & I & D & _).
  unfold variants_or_self, wf_ty, is_builtin, is_inferred, has_default, is_union_type, tag_is in E |- *.
  rewrite set_vars_fl, set_vars_tag, t_vars_set_vars, E, app_length, forallb_app, Sv. cbn [forallb]. rewrite S.
  repeat split; auto. right. lia.
Qed.

Lemma wf_pair dt a : wf_ty dt -> scalar dt = true -> arg_ok a = true -> is_match_type dt a = false ->
  let u := set_inf (set_hd (UnifyVariants (MakeUnion [dt; a])) false) true in wf_ty u /\ variants_or_self u = [dt; a].
Proof.
  intros (_ & U & _) Sd Ha Em. destruct (arg_ok_parts a Ha) as (Sa & Ua & _).
  rewrite (UnifyVariants_pair dt a Sd Sa U Ua).
  - split; [|reflexivity]. repeat split. right. repeat split; [apply le_n|].
    change (scalar dt && (scalar a && true) = true). rewrite Sd, Sa. reflexivity.
  - destruct (same_kind dt a) eqn:E; [|reflexivity]. rewrite (same_kind_match dt a Sd E) in Em. discriminate.
Qed.

(* an argument that is absorbed was admitted; one that is added is admitted afterwards, and nothing is lost *)
Lemma absorbs_admits dt a : wf_ty dt -> absorbs dt a = true -> admits_arg dt a = true.
Proof.
  unfold absorbs, admits_arg, variants_or_self. intros W. destruct (is_union_type dt) eqn:E.
  - apply same_kind_admits, (wf_union dt W E).
  - cbn [existsb]. intros ->. reflexivity.
Qed.

Lemma absorbs_grows dt dt' a : wf_ty dt -> scalar a = true ->
  variants_or_self dt' = (if absorbs dt a then variants_or_self dt else variants_or_self dt ++ [a]) ->
  admits_arg dt' a = true /\ (forall x, admits_arg dt x = true -> admits_arg dt' x = true).
Proof.
  intros W Sa E. unfold admits_arg at 1 3. rewrite E. destruct (absorbs dt a) eqn:A; [split; [exact (absorbs_admits dt a W A) | auto]|].
  split; [|intros x Hx]; rewrite existsb_app.
  - cbn [existsb]. rewrite (match_refl a Sa). apply orb_true_r.
  - unfold admits_arg in Hx. rewrite Hx. reflexivity.
Qed.

Section Cover.
  Variable V : prop_variant.
  Variable bm : bool.
  Variable r : string.
  Variable dom : ty -> Prop.
  Hypothesis dom_ok : forall a, dom a -> arg_ok a = true.

  (* the entry carries the Round tag of an earlier round *)
  Definition foreign (dr : string) : bool := negb (String.eqb dr "") && negb (String.eqb dr r).
  (* the two-variant heuristic looks at a union of two from an earlier round *)
  Definition two_variant (dt : ty) (dr : string) : bool := foreign dr && negb bm && Nat.eqb (List.length (t_vars dt)) 2.

  Lemma foreign_r : foreign r = false.
  Proof. unfold foreign. rewrite String.eqb_refl. apply andb_false_r. Qed.

  (* what a call site does to an inferred entry.  A union: the two-variant heuristic replaces it, or the argument's type is
     added.  A single type: it is replaced if it comes from an earlier round, kept if it matches, else paired with the
     argument's type *)
  Lemma propagate_inferred dt dr a : wf_ty dt ->
    snd (propagate V bm r (Some (dt, dr)) a) =
    if is_union_type dt then
      let a' := if two_variant dt dr then set_inf a true else a in
      if two_variant dt dr && existsb is_any_type (t_vars dt) && existsb (fun v => is_match_type v a') (t_vars dt)
      then Some (set_inf a true, r) else Some (AppendVariant dt a', dr)
    else if foreign dr then Some (set_inf a true, r)
    else if is_match_type dt a then Some (dt, dr)
    else Some (set_inf (set_hd (UnifyVariants (MakeUnion (dt :: variants_or_self a))) false) true, r).
  Proof.
    intros (Hb & Hu & Hi & Hd & _). unfold propagate, two_variant, foreign, variants_or_self at 1. rewrite Hu, Hb, Hd, Hi.
    destruct (is_union_type dt).
    - rewrite !andb_true_r. cbn [andb].
      destruct (negb (String.eqb dr "") && negb (String.eqb dr r) && negb bm && Nat.eqb (List.length (t_vars dt)) 2);
        [rewrite set_inf_idem; destruct (_ && _) | ]; reflexivity.
    - rewrite !andb_false_r. cbn [andb orb app].
      destruct (negb (String.eqb dr "") && negb (String.eqb dr r)), (is_match_type dt a); reflexivity.
  Qed.

  (* a call site of the round the entry belongs to (or of any round, when the entry has no tag): the argument's type is
     added unless it is there *)
  Lemma step_current dt dr a : wf_ty dt -> arg_ok a = true -> foreign dr = false ->
    exists dt' dr', snd (propagate V bm r (Some (dt, dr)) a) = Some (dt', dr') /\ wf_ty dt' /\ (dr' = dr \/ dr' = r) /\
                    variants_or_self dt' = if absorbs dt a then variants_or_self dt else variants_or_self dt ++ [a].
  Proof.
    intros W Ha F. destruct (arg_ok_parts a Ha) as (Sa & _).
    rewrite (propagate_inferred dt dr a W). unfold two_variant, absorbs. rewrite F. cbn [andb].
    destruct (is_union_type dt) eqn:Eu.
    - destruct (wf_append dt a W Eu Sa) as (W' & _ & Ev). unfold absorbs in Ev. rewrite Eu in Ev.
      exists (AppendVariant dt a), dr. auto.
    - pose proof (wf_scalar dt W Eu) as Sd. rewrite (variants_scalar dt Sd), (variants_scalar a Sa).
      destruct (is_match_type dt a) eqn:Em.
      + exists dt, dr. rewrite (variants_scalar dt Sd). auto.
      + destruct (wf_pair dt a W Sd Ha Em) as [W' Ev]. eexists _, r. split; [reflexivity | auto].
  Qed.

  (* no call site of this round replaces the entry any more: a single type carries this round's tag or none, and the
     two-variant heuristic does not apply *)
  Definition settled (dt : ty) (dr : string) : Prop :=
    wf_ty dt /\ (foreign dr = true -> is_union_type dt = true) /\ (two_variant dt dr = true -> existsb is_any_type (t_vars dt) = false).

  Lemma settled_current dt dr : wf_ty dt -> foreign dr = false -> settled dt dr.
  Proof. intros W F. unfold settled, two_variant. rewrite F. split; [exact W | split; discriminate]. Qed.

  Lemma fresh_entry a : arg_ok a = true -> settled (set_inf a true) r /\ admits_arg (set_inf a true) a = true.
  Proof.
    intros Ha. destruct (arg_ok_parts a Ha) as (Sa & _). destruct (wf_fresh a Ha) as [W Ev].
    split; [exact (settled_current _ r W foreign_r)|].
    unfold admits_arg. rewrite Ev. cbn [existsb]. rewrite is_match_set_inf_l, (match_refl a Sa). reflexivity.
  Qed.

  (* every call site leaves a settled entry that admits its argument, and loses nothing of a settled entry *)
  Lemma cover_step dt dr a : wf_ty dt -> arg_ok a = true ->
    exists dt' dr', snd (propagate V bm r (Some (dt, dr)) a) = Some (dt', dr') /\ (settled dt' dr' /\ admits_arg dt' a = true) /\
                    (settled dt dr -> forall x, admits_arg dt x = true -> admits_arg dt' x = true).
  Proof.
    intros W Ha. destruct (foreign dr) eqn:F.
    2:{ destruct (step_current dt dr a W Ha F) as (dt' & dr' & E & W' & Hdr & Hv). destruct (arg_ok_parts a Ha) as (Sa & _).
        destruct (absorbs_grows dt dt' a W Sa Hv) as [Aa Am]. exists dt', dr'.
        assert (F' : foreign dr' = false) by (destruct Hdr as [-> | ->]; [exact F | exact foreign_r]).
        auto using settled_current. }
    rewrite (propagate_inferred dt dr a W), F. destruct (is_union_type dt) eqn:Eu.
    2:{ exists (set_inf a true), r. split; [reflexivity | split; [exact (fresh_entry a Ha) | intros (_ & U & _)]].
        rewrite (U F) in Eu. discriminate. }
    cbv zeta. set (a' := if two_variant dt dr then set_inf a true else a).
    assert (Ha' : arg_ok a' = true) by (subst a'; destruct (two_variant dt dr); [rewrite arg_ok_set_inf|]; exact Ha).
    assert (Hm : forall v, is_match_type v a' = is_match_type v a)
      by (intros v; subst a'; destruct (two_variant dt dr); [apply is_match_set_inf_r | reflexivity]).
    destruct (arg_ok_parts a' Ha') as (Sa' & _).
    destruct (two_variant dt dr && existsb is_any_type (t_vars dt) && existsb (fun v => is_match_type v a') (t_vars dt)) eqn:E.
    - exists (set_inf a true), r. split; [reflexivity | split; [exact (fresh_entry a Ha) | intros (_ & _ & N)]].
      apply andb_true_iff in E as [E _]. apply andb_true_iff in E as [T E]. rewrite (N T) in E. discriminate.
    - exists (AppendVariant dt a'), dr. destruct (wf_append dt a' W Eu Sa') as (W' & Eu' & Ev).
      destruct (absorbs_grows dt _ a' W Sa' Ev) as [Aa Am]. unfold admits_arg in Aa. rewrite (existsb_ext _ _ _ Hm) in Aa.
      enough (St : two_variant (AppendVariant dt a') dr = true -> existsb is_any_type (t_vars (AppendVariant dt a')) = false)
        by (unfold settled; auto 7).
      (* a union of two after the argument was added held it already: then it matched, so no variant is untyped *)
      unfold absorbs in Ev. rewrite Eu, (variants_union _ Eu'), (variants_union _ Eu) in Ev. unfold two_variant. rewrite Ev.
      destruct (wf_union dt W Eu) as [L Sv]. destruct (existsb (fun v => same_kind v a') (t_vars dt)) eqn:X.
      + apply (same_kind_admits _ _ Sv) in X. intros T. fold (two_variant dt dr) in T. rewrite T, X, andb_true_r in E. exact E.
      + rewrite app_length. intros T. apply andb_true_iff in T as [_ T]. apply Nat.eqb_eq in T. cbn [List.length] in T. lia.
  Qed.

  Lemma cover_run args : forall dt dr, settled dt dr -> Forall dom args ->
    exists dt' dr', round_run V bm r (Some (dt, dr)) args = Some (dt', dr') /\
                    forall x, admits_arg dt x = true \/ In x args -> admits_arg dt' x = true.
  Proof.
    induction args as [|a args IH]; intros dt dr S Hd.
    - exists dt, dr. split; [reflexivity | intros x [H|[]]; exact H].
    - inversion Hd as [|? ? Ha Hd']; subst. destruct (cover_step dt dr a (proj1 S) (dom_ok a Ha)) as (dt1 & dr1 & E & [S1 Aa] & Am).
      destruct (IH dt1 dr1 S1 Hd') as (dt' & dr' & E' & H'). exists dt', dr'.
      split; [unfold round_run in *; cbn [fold_left]; rewrite E; exact E'|].
      intros x [H|[<-|H]]; apply H'; auto.
  Qed.

  (* what earlier rounds may have left behind: nothing, or an inferred type *)
  Definition start_ok (e : option pentry) : Prop := match e with None => True | Some (dt, _) => wf_ty dt end.

  (* C15: after the call sites of a round — from any such state — the parameter admits the argument of every one of them.
     The first call site settles the entry, the others add to it *)
  Theorem round_covers e args a : start_ok e -> Forall dom args -> In a args -> covered (round_run V bm r e args) a.
  Proof.
    intros Hs Hd Hin. destruct args as [|a0 rest]; [destruct Hin|]. inversion Hd as [|? ? Ha Hd']; subst. apply dom_ok in Ha.
    assert (exists dt dr, snd (propagate V bm r e a0) = Some (dt, dr) /\ settled dt dr /\ admits_arg dt a0 = true) as (dt & dr & E & S & A0).
    { destruct e as [[dt dr]|].
      - destruct (cover_step dt dr a0 Hs Ha) as (dt' & dr' & ? & ? & _). eauto.
      - exists (set_inf a0 true), r. split; [reflexivity | exact (fresh_entry a0 Ha)]. }
    destruct (cover_run rest dt dr S Hd') as (dt' & dr' & E' & H'). unfold round_run in *. cbn [fold_left]. rewrite E, E'.
    apply H'. destruct Hin as [<-|Hin]; auto.
  Qed.

End Cover.

(* a round that starts from nothing, on argument types between which T.IsMatchType is equality of tag and class *)
Section Collect.
  Variable V : prop_variant.
  Variable bm : bool.
  Variable r : string.
  Variable dom : ty -> Prop.
  Hypothesis dom_ok : forall a, dom a -> arg_ok a = true.
  Hypothesis dom_match : forall a b, dom a -> dom b -> is_match_type a b = same_kind a b.

  Definition collected (seen : list ty) (dt : ty) : Prop := wf_ty dt /\ map kind (variants_or_self dt) = map kind seen.

  Lemma collect_step seen dt a : collected seen dt -> Forall dom seen -> dom a ->
    exists dt', snd (propagate V bm r (Some (dt, r)) a) = Some (dt', r) /\
                collected (if existsb (fun s => same_kind s a) seen then seen else seen ++ [a]) dt'.
  Proof.
    intros [W Hk] Hs Ha.
    destruct (step_current V bm r dt r a W (dom_ok a Ha) (foreign_r r)) as (dt' & dr' & E & W' & Hdr & Hv).
    exists dt'. split; [destruct Hdr; subst dr'; exact E|]. split; [exact W'|]. rewrite Hv.
    (* the entry absorbs a exactly when a kind already seen is the kind of a *)
    assert (A : absorbs dt a = existsb (fun s => same_kind s a) seen).
    { unfold absorbs. destruct (is_union_type dt) eqn:Eu.
      - rewrite (variants_union dt Eu) in Hk. exact (existsb_kinds _ _ a Hk).
      - pose proof (wf_scalar dt W Eu) as Sd. rewrite (variants_scalar dt Sd) in Hk.
        destruct seen as [|x [|]]; try discriminate Hk. injection Hk as Ht Hc. inversion Hs as [|? ? Hx _].
        destruct (arg_ok_parts x (dom_ok x Hx)) as (Sx & _).
        rewrite (is_match_type_kind dt x a Sd Sx) by (unfold kind; rewrite Ht, Hc; reflexivity).
        rewrite (dom_match x a Hx Ha). cbn [existsb]. rewrite orb_false_r. reflexivity. }
    rewrite A. destruct (existsb _ seen); [exact Hk|]. rewrite !map_app, Hk. reflexivity.
  Qed.

  Lemma collect_run rest : forall seen dt, collected seen dt -> Forall dom seen -> Forall dom rest ->
    exists dt', round_run V bm r (Some (dt, r)) rest = Some (dt', r) /\ collected (seen ++ distinct_kinds seen rest) dt'.
  Proof.
    induction rest as [|a rest IH]; intros seen dt Hc Hs Hr; cbn [distinct_kinds].
    - exists dt. rewrite app_nil_r. split; [reflexivity | exact Hc].
    - inversion Hr as [|? ? Ha Hr']. destruct (collect_step seen dt a Hc Hs Ha) as (dt1 & E1 & H1).
      unfold round_run. cbn [fold_left]. rewrite E1.
      destruct (existsb (fun s => same_kind s a) seen).
      + apply IH; assumption.
      + destruct (IH (seen ++ [a]) dt1 H1) as (dt' & E' & H'); [apply Forall_app; auto | exact Hr' |].
        exists dt'. rewrite <- app_assoc in H'. auto.
  Qed.

  (* C15: starting from a parameter nothing is known about, the call sites of one round leave it with exactly the
     distinct types of their arguments, in order of first occurrence *)
  Theorem round_collects args : args <> [] -> Forall dom args ->
    exists dt, round_run V bm r None args = Some (dt, r) /\ map kind (variants_or_self dt) = map kind (distinct_kinds [] args).
  Proof.
    destruct args as [|a rest]; [congruence|]. intros _ H. inversion H as [|? ? Ha Hr].
    assert (C : collected [a] (set_inf a true)).
    { destruct (wf_fresh a (dom_ok a Ha)) as [W Ev]. split; [exact W|]. rewrite Ev. cbn [map]. rewrite kind_set_inf. reflexivity. }
    destruct (collect_run rest [a] (set_inf a true) C (Forall_cons a Ha (Forall_nil _)) Hr) as (dt & E & _ & Hk).
    exists dt. split; [exact E | exact Hk].
  Qed.
End Collect.
