(* C13: how a name is classified depends on its lexical category only; keyword pairing does not depend on names *)
From RT Require Import Model.Parser Model.Args Proofs.ArgsP.
From Coq Require Import Permutation.

Section Classify.
  Variables (is_uupper is_ulower : N -> bool) (builtin_classes : list (list N)).
  Let classify := classify is_uupper is_ulower builtin_classes.
  Let in_builtin := in_builtin builtin_classes.

  Definition plain_start (s : list N) : bool :=
    negb (first_byte_upper is_uupper s) && negb (match s with c :: _ => (c =? ch_colon)%N | [] => false end).

  (* a name that starts neither with an upper-case letter nor with a colon, is not true/false and not the name of a
     configured class, is an identifier — whatever its length and its other characters *)
  Theorem classify_lower s : plain_start s = true -> in_builtin s = false ->
    list_N_eqb s s_true = false -> list_N_eqb s s_false = false -> classify s = KIdent s.
  Proof.
    intros Hp Hb Ht Hf. unfold classify, Parser.classify. rewrite Ht, Hf.
    unfold plain_start in Hp. apply andb_true_iff in Hp as [H1 H2]. apply negb_true_iff in H1, H2.
    unfold is_class_name, is_const_name, is_symbol_name. fold in_builtin. rewrite Hb, H1. cbn [orb andb negb].
    rewrite andb_false_r. cbn [andb]. rewrite H2, andb_false_r. reflexivity.
  Qed.

  (* an upper-case-initial name that contains a lower-case letter is a class name *)
  Theorem classify_class s : first_byte_upper is_uupper s = true -> existsb is_ulower s = true ->
    list_N_eqb s s_true = false -> list_N_eqb s s_false = false -> classify s = KClass s.
  Proof.
    intros H1 H2 Ht Hf. unfold classify, Parser.classify. rewrite Ht, Hf.
    unfold is_class_name. rewrite H1, H2, orb_true_r. reflexivity.
  Qed.
End Classify.

Lemma map_insert_by {A} (key : A -> string) x l :
  map key (insert_by key x l) = insert_by (fun s => s) (key x) (map key l).
Proof. induction l as [|y r IH]; cbn [insert_by map]; [reflexivity|]. destruct (str_leb (key x) (key y)); cbn [map]; [reflexivity | rewrite IH; reflexivity]. Qed.
Lemma map_sort_by {A} (key : A -> string) l : map key (sort_by key l) = sort_by (fun s => s) (map key l).
Proof. induction l as [|x r IH]; cbn [sort_by fold_right map]; [reflexivity|]. rewrite map_insert_by. unfold sort_by in IH. rewrite IH. reflexivity. Qed.

(* the i-th declared keyword parameter (sorted) is the parameter of the i-th keyword argument (sorted), for every
   choice of names: both sides are sorted by the same order *)
Theorem keyword_pairing (kws : list ty) (names : list string) :
  Permutation (map t_key kws) names -> NoDup names ->
  map t_key (sort_by t_key kws) = sort_by (fun s => s) names.
Proof.
  intros Hp Hnd. rewrite map_sort_by. apply (sort_by_perm (fun s => s)); [exact Hp|].
  rewrite map_id. eapply Permutation_NoDup; [apply Permutation_sym; exact Hp | exact Hnd].
Qed.
