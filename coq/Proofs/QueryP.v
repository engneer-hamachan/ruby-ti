(* Proofs about the query-mode printers: every record is one well-formed line; the repaired code never
   panics.  The pinned code panics on a target that renders as the empty string: the witness empty_target is
   defined at the end and evaluated in Properties/C04.v. *)
From RT Require Import Model.Query Proofs.DriverP.

Lemma wf_escape s : record_prefix (escape_msg s) = true -> wf_record (escape_msg s) = true.
Proof. intros H. unfold wf_record. rewrite H. apply no_eol_escape. Qed.

Lemma wf_suggestion a b c : wf_record (suggestion_record a b c) = true. Proof. apply wf_escape; reflexivity. Qed.
Lemma wf_sig_suggestion s : wf_record (sig_suggestion s) = true. Proof. apply wf_suggestion. Qed.
Lemma wf_signature s r : wf_record (signature_record s r) = true. Proof. apply wf_escape; reflexivity. Qed.
Lemma wf_inheritance c p : wf_record (inheritance_record c p) = true. Proof. apply wf_escape; reflexivity. Qed.
Lemma wf_target f c : wf_record (target_record f c) = true. Proof. apply wf_escape; reflexivity. Qed.
Lemma wf_class n : wf_record (class_record n) = true. Proof. apply wf_escape; reflexivity. Qed.

Lemma Forall_map_all {A B} (P : B -> Prop) (f : A -> B) l : (forall x, P (f x)) -> Forall P (map f l).
Proof. intros H. apply Forall_map, Forall_forall. intros x _. apply H. Qed.

Lemma collect_some {A B} (f : A -> option (list B)) (P : B -> Prop) l :
  (forall x, exists ys, f x = Some ys /\ Forall P ys) -> exists zs, collect f l = Some zs /\ Forall P zs.
Proof.
  intros H; induction l as [|x r [zs [E F]]]; cbn [collect]; [exists []; split; [reflexivity | constructor]|].
  destruct (H x) as [ys [Ey Fy]]. rewrite Ey, E. exists (ys ++ zs); split; [reflexivity | apply Forall_app; split; assumption].
Qed.

Lemma calc_guarded t : exists r, calc_object_class true t = Some r.
Proof.
  unfold calc_object_class. destruct (tag_eqb (tg_tag t) CLASS); [eexists; reflexivity|].
  destruct (tg_bec t); [destruct (String.eqb (tg_str t) "")|]; eexists; reflexivity.
Qed.

Lemma is_suggest_guarded scoped m bl t s : exists b, is_suggest true scoped m bl t s = Some b.
Proof.
  unfold is_suggest. destruct (String.eqb (s_class s) ""); [eexists; reflexivity|].
  destruct (String.eqb (s_class s) "Kernel"); [eexists; reflexivity|].
  destruct (calc_guarded t) as [[oc st] ->]. eexists; reflexivity.
Qed.

(* what one signature contributes to the suggestions, with the Kernel / Object shortcut in front (k) or without *)
Lemma suggest_step_ok scoped m bl t s (k : bool) : exists ys,
  (if k then Some [sig_suggestion s]
   else match is_suggest true scoped m bl t s with
        | None => None
        | Some true => Some [sig_suggestion s]
        | Some false => Some []
        end) = Some ys /\ Forall (fun l => wf_record l = true) ys.
Proof.
  destruct k; [|destruct (is_suggest_guarded scoped m bl t s) as [[|] ->]]; eexists;
    repeat constructor; apply wf_sig_suggestion.
Qed.

Lemma print_suggestions_total scoped m bl t u i vs sigs :
  exists ls, print_suggestions true scoped m bl t u i vs sigs = Some ls /\ Forall (fun l => wf_record l = true) ls.
Proof.
  unfold print_suggestions. destruct u.
  - apply collect_some. intros v. apply collect_some. intros s. exact (suggest_step_ok scoped m bl v s false).
  - destruct (collect_some _ _ (sorted_by_method sigs) (fun s => suggest_step_ok scoped m bl t s (is_suggest_kernel_or_object t (s_class s))))
      as (zs & E & F).
    rewrite E. destruct zs as [|z zs]; [|exists (z :: zs); split; [reflexivity | exact F]].
    destruct (_ && _); eexists; (split; [reflexivity|]); [apply Forall_map_all, wf_class | constructor].
Qed.

Definition wf_qline (tfile : string) (q : qline) : Prop :=
  match q with
  | QRec s => wf_record s = true
  | QDiag (LDiag f _ msg) => f = tfile /\ no_eol msg = true
  | QDiag (LInfo _ _ _) => False
  end.

Lemma query_output_wf scoped mode m bl t u i vs gdc gm sigs diags tfile :
  Forall (diag_ok tfile) diags ->
  exists ls, query_output true scoped mode m bl t u i vs gdc gm sigs diags = Some ls /\ Forall (wf_qline tfile) ls.
Proof.
  intros Hd. unfold query_output.
  assert (Hr : forall rs, Forall (fun l => wf_record l = true) rs -> Forall (wf_qline tfile) (map QRec rs ++ map QDiag diags))
    by (intros rs Hrs; apply Forall_app; split; apply Forall_map; assumption).
  destruct mode.
  - destruct (Nat.ltb 0 (List.length sigs)); [|eexists; split; [reflexivity | apply Hr; constructor]].
    destruct (print_suggestions_total scoped m bl t u i vs (map fst sigs)) as [ls [-> F]].
    eexists; split; [reflexivity | apply Hr; exact F].
  - eexists; split; [reflexivity|]. apply Hr, Forall_map_all, wf_sig_suggestion.
  - destruct (Nat.ltb 0 (List.length sigs)); (eexists; split; [reflexivity|]; apply Hr); [|constructor].
    constructor; [apply wf_target|]. apply Forall_app; split; [apply Forall_map_all; intros sr; apply wf_signature|].
    apply Forall_flat_map, Forall_forall. intros kv _. apply Forall_map_all, wf_inheritance.
Qed.

(* a whole run in a query mode: status 0, well-formed lines only *)
Theorem run_query_ok scoped mode m bl t u i vs gdc gm sigs preloads tfile tsrc articles :
  exists ls, run_query true scoped mode m bl t u i vs gdc gm sigs preloads (tfile, tsrc) articles = Some (ls, 0%Z)
             /\ Forall (wf_qline tfile) ls.
Proof.
  unfold run_query, run_driver. cbn [fl_define_info app].
  set (final := eval_loop true tfile (tsrc "check"%string) empty_out).
  assert (He : Forall (diag_ok tfile) (po_errors final)) by (apply eval_loop_errors; constructor).
  destruct (query_output_wf scoped mode m bl t u i vs gdc gm sigs (po_errors final) tfile He) as [ls [-> F]].
  exists ls; split; [reflexivity | exact F].
Qed.

(* the target and signature on which the pinned code panics (C04_pinned_refuted): the implicit receiver renders as ""
   and target[0] is out of range *)
Definition empty_target : target :=
  {| tg_tag := UNKNOWN; tg_str := ""; tg_cls := ""; tg_bec := ""; tg_frame := ""; tg_meth := "";
     tg_df := ""; tg_dc := ""; tg_dm := ""; tg_static := false |}.
Definition some_sig : sig :=
  {| s_method := "upcase"; s_detail := "upcase() -> String"; s_frame := "Builtin"; s_class := "String";
     s_static := false; s_private := false; s_file := ""; s_row := 0%Z; s_doc := "" |}.
