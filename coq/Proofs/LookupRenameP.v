(* C27: the ancestor walk of method lookup commutes with every consistent renaming of (frame, class) nodes — wrapping
   a group of classes in `module M` renames each of its nodes (frame F becomes M or M::F) and nothing else, so the
   walk visits the renamed nodes in the same order and answers with the renamed class. *)
From RT Require Import Model.Lookup Proofs.SuggestP Proofs.LookupCompleteP.

Definition rename_p (phi : node -> node) (p : pnode) : pnode :=
  {| pn_frame := fst (phi (pn_node p)); pn_class := snd (phi (pn_node p));
     pn_include := pn_include p; pn_extend := pn_extend p |}.
Definition rename_map (phi : node -> node) (m : inh_map) : inh_map :=
  map (fun kp => (phi (fst kp), map (rename_p phi) (snd kp))) m.
Definition rename_res (phi : node -> node) (r : option (option node * list node)) : option (option node * list node) :=
  option_map (fun ru => (option_map phi (fst ru), map phi (snd ru))) r.

Section Rename.
  Variables (has has' : node -> bool -> bool) (builtin : list string) (phi : node -> node).
  Hypothesis Hinj : forall a b, fc_eqb (phi a) (phi b) = fc_eqb a b.
  Hypothesis Hnorm : forall n, norm builtin (phi n) = phi (norm builtin n).
  Hypothesis Hhas : forall n b, has' (phi n) b = has n b.

  Lemma pn_node_rename p : pn_node (rename_p phi p) = phi (pn_node p).
  Proof. symmetry. apply surjective_pairing. Qed.

  Lemma mem_fc_rename n uv : mem_fc (phi n) (map phi uv) = mem_fc n uv.
  Proof. unfold mem_fc. induction uv as [|x r IH]; cbn [map existsb]; [reflexivity|]. rewrite Hinj, IH. reflexivity. Qed.

  Lemma remove_fc_rename n uv : remove_fc (phi n) (map phi uv) = map phi (remove_fc n uv).
  Proof.
    induction uv as [|x r IH]; cbn [map remove_fc]; [reflexivity|]. rewrite Hinj.
    destruct (fc_eqb n x); rewrite IH; reflexivity.
  Qed.

  Lemma parents_of_rename m n : parents_of (rename_map phi m) (phi n) = map (rename_p phi) (parents_of m n).
  Proof.
    induction m as [|[k ps] r IH]; cbn [rename_map map parents_of fst snd]; [reflexivity|]. rewrite Hinj.
    destruct (fc_eqb n k); [reflexivity | exact IH].
  Qed.

  Lemma first_found_rename {A B} (g : A -> B) (s : A -> list node -> option (option node * list node))
        (s' : B -> list node -> option (option node * list node)) :
    (forall p u, s' (g p) (map phi u) = rename_res phi (s p u)) ->
    forall ps uv, first_found s' (map g ps) (map phi uv) = rename_res phi (first_found s ps uv).
  Proof.
    intros Hs ps; induction ps as [|p r IH]; intros uv; cbn [map first_found]; [reflexivity|]. rewrite Hs.
    destruct (s p uv) as [[[x|] u1]|]; [reflexivity | apply IH | reflexivity].
  Qed.

  Lemma child_rename st p :
    child builtin st (rename_p phi p) = option_map (fun ck => (phi (fst ck), snd ck)) (child builtin st p).
  Proof.
    unfold child. rewrite pn_node_rename, Hnorm. cbn [rename_p pn_extend pn_include].
    destruct (pn_extend p), (pn_include p), st; reflexivity.
  Qed.

  (* the walk over the renamed map, from the renamed class, with the renamed visited set: the renamed answer *)
  Theorem plookup_rename m f : forall static uv n,
    plookup has' builtin f (rename_map phi m) static (map phi uv) (phi n)
    = rename_res phi (plookup has builtin f m static uv n).
  Proof.
    induction f as [|f IH]; intros static uv n; cbn [plookup]; [reflexivity|].
    rewrite mem_fc_rename. destruct (mem_fc n uv); cbn [negb]; [|reflexivity].
    rewrite parents_of_rename, remove_fc_rename.
    apply first_found_rename. intros p u. rewrite !lstep_child, child_rename.
    destruct (child builtin static p) as [[c cm]|]; cbn [option_map fst snd]; [|reflexivity].
    rewrite Hhas. destruct (has c cm); [reflexivity | apply IH].
  Qed.
End Rename.

(* wrapping in `module M`: frame F becomes M (F empty) or M::F (base/t_frame.go CalculateFrame) *)
Definition wrap_frame (M : string) (n : node) : node :=
  ((if String.eqb (fst n) "" then M else M ++ "::" ++ fst n)%string, snd n).

Lemma append_eqb_l (p a b : string) : String.eqb (p ++ a) (p ++ b) = String.eqb a b.
Proof. induction p as [|c p IH]; cbn [append]; [reflexivity|]. cbn [String.eqb]. rewrite Ascii.eqb_refl. exact IH. Qed.

Lemma append_nil_r (s : string) : (s ++ "")%string = s.
Proof. induction s as [|c s IH]; cbn [append]; [reflexivity | rewrite IH; reflexivity]. Qed.

Lemma wrap_frame_app M n : fst (wrap_frame M n) = (M ++ if String.eqb (fst n) "" then "" else "::" ++ fst n)%string.
Proof. unfold wrap_frame. destruct (String.eqb (fst n) ""); [symmetry; apply append_nil_r | reflexivity]. Qed.

(* after the common prefix M, an empty frame and a non-empty one differ in the first character, two non-empty ones
   where they differed *)
Lemma wrap_frame_inj M a b : fc_eqb (wrap_frame M a) (wrap_frame M b) = fc_eqb a b.
Proof. unfold fc_eqb. rewrite !wrap_frame_app, append_eqb_l. destruct (fst a), (fst b); reflexivity. Qed.

(* a group that mentions no configured class by a top-level name: the Builtin normalisation leaves it alone, before
   and after wrapping (no configured class name in the model's list) *)
Theorem plookup_wrap (has has' : node -> bool -> bool) (M : string) m f static uv n :
  (forall x b, has' (wrap_frame M x) b = has x b) ->
  plookup has' [] f (rename_map (wrap_frame M) m) static (map (wrap_frame M) uv) (wrap_frame M n)
  = rename_res (wrap_frame M) (plookup has [] f m static uv n).
Proof.
  intros Hh. apply plookup_rename; [apply wrap_frame_inj | intros x; rewrite !norm_nil; reflexivity | exact Hh].
Qed.
