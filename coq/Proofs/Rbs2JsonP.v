(* C25: the order of the emitted arguments, and independence from the order in which the keyword maps are read *)
From RT Require Import Model.Rbs2Json Proofs.SortP Proofs.ArgsP.
From Coq Require Import Permutation.

Section P.
  Variable conv : rtype -> list string.

  Definition n_typed (l : list rparam) : nat := List.length (filter (fun p => match rp_type p with Some _ => true | None => false end) l).

  Lemma flat_typed_kinds mk l (P : tiarg -> Prop) : (forall ts, P (mk ts)) -> Forall P (flat_map (typed conv mk) l).
  Proof.
    intros H. induction l as [|p r IH]; [constructor|]. apply Forall_app; split; [|exact IH].
    unfold typed. destruct (rp_type p); [constructor; [apply H | constructor] | constructor].
  Qed.
  Lemma flat_typed_length mk l : List.length (flat_map (typed conv mk) l) = n_typed l.
  Proof.
    unfold n_typed. induction l as [|p r IH]; cbn [flat_map filter]; [reflexivity|]. rewrite app_length, IH.
    unfold typed. destruct (rp_type p); reflexivity.
  Qed.

  (* the six groups, in order: required, optional (is_default), rest (is_asterisk), trailing, required keywords,
     optional keywords (is_default); trailing positionals are is_req again *)
  Definition is_req a := ta_key a = ""%string /\ ta_ast a = false /\ ta_def a = false.
  Definition is_opt a := ta_key a = ""%string /\ ta_ast a = false /\ ta_def a = true.
  Definition is_rest a := ta_key a = ""%string /\ ta_ast a = true /\ ta_def a = false.
  Definition is_kwreq a := ta_key a <> ""%string /\ ta_ast a = false /\ ta_def a = false.
  Definition is_kwopt a := ta_key a <> ""%string /\ ta_ast a = false /\ ta_def a = true.

  Lemma append_colon_nonempty n : String.append n ":" <> ""%string.
  Proof. destruct n; discriminate. Qed.

  (* Go's map iteration is an adversary: any enumeration of the same keyword map gives the same output *)
  Lemma find_perm (kws kws' : list (string * rparam)) n : NoDup (map fst kws) -> Permutation kws kws' ->
    find (fun kv => String.eqb (fst kv) n) kws = find (fun kv => String.eqb (fst kv) n) kws'.
  Proof.
    intros Hnd Hp. induction Hp as [|x l l' Hp IH|x y l|l l' l'' H1 IH1 H2 IH2]; cbn [find map] in *.
    - reflexivity.
    - apply NoDup_cons_iff in Hnd. rewrite IH by apply Hnd. reflexivity.
    - (* two entries are swapped: their names differ, so n is at most one of them *)
      destruct (String.eqb_spec (fst y) n), (String.eqb_spec (fst x) n); try reflexivity.
      apply NoDup_cons_iff in Hnd as [Hn _]. destruct Hn. left. congruence.
    - rewrite IH1 by exact Hnd. apply IH2. eapply Permutation_NoDup; [apply Permutation_map; exact H1 | exact Hnd].
  Qed.

  (* a keyword group is read through the sorted names and a lookup by name: neither sees the order of the map *)
  Lemma kw_group_perm (mk : string -> list string -> tiarg) kws kws' :
    NoDup (map fst kws) -> Permutation kws kws' ->
    flat_map (fun n => flat_map (typed conv (mk n)) (kw_lookup kws n)) (sort str_leb (map fst kws)) =
    flat_map (fun n => flat_map (typed conv (mk n)) (kw_lookup kws' n)) (sort str_leb (map fst kws')).
  Proof.
    intros Hnd Hp. rewrite (sort_perm str_leb str_order _ _ (Permutation_map fst Hp)).
    apply flat_map_ext. intros n. unfold kw_lookup. rewrite (find_perm _ _ n Hnd Hp). reflexivity.
  Qed.
End P.
