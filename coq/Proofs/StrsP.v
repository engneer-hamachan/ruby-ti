(* About Model/Strs.v: the lengths that bound the recursion of parseTypeString, and split_char as the inverse of
   joining separator-free parts *)
From RT Require Import Model.Strs.

Lemma length_drop_last s : String.length (drop_last s) <= String.length s.
Proof.
  induction s as [|x r IH]; cbn [drop_last String.length]; [lia|].
  destruct r as [|y r']; cbn [String.length] in *; lia.
Qed.

Lemma length_trim_left s : String.length (trim_left s) <= String.length s.
Proof.
  induction s as [|x r IH]; cbn [trim_left String.length]; [lia|].
  destruct (is_ascii_space x); cbn [String.length]; lia.
Qed.

Lemma length_rev_acc s acc :
  String.length (rev_string_acc s acc) = String.length s + String.length acc.
Proof.
  revert acc; induction s as [|x r IH]; intros acc; cbn [rev_string_acc String.length]; [lia|].
  rewrite IH; cbn [String.length]; lia.
Qed.

Lemma length_rev s : String.length (rev_string s) = String.length s.
Proof. unfold rev_string; rewrite length_rev_acc; cbn [String.length]; lia. Qed.

Lemma length_trim_space s : String.length (trim_space s) <= String.length s.
Proof.
  unfold trim_space. rewrite length_rev.
  eapply Nat.le_trans; [apply length_trim_left|]. rewrite length_rev. apply length_trim_left.
Qed.

Lemma split_char_nonempty c s : split_char c s <> [].
Proof.
  destruct s as [|x r]; cbn [split_char]; [discriminate|].
  destruct (Ascii.eqb x c); [discriminate|]. destruct (split_char c r); discriminate.
Qed.

(* every part is no longer than the input, and shorter by the separator when there is one *)
Lemma split_char_length c s p :
  In p (split_char c s) -> String.length p + Nat.b2n (contains_char c s) <= String.length s.
Proof.
  revert p; induction s as [|x r IH]; intros p Hin; cbn [split_char contains_char String.length] in *.
  - destruct Hin as [<-|[]]. reflexivity.
  - destruct (Ascii.eqb x c); cbn [orb Nat.b2n].
    + destruct Hin as [<-|Hin]; [cbn [String.length]; lia|]. apply IH in Hin. lia.
    + destruct (split_char c r) as [|q qs] eqn:Es; [destruct (split_char_nonempty _ _ Es)|].
      destruct Hin as [<-|Hin]; [specialize (IH q (or_introl eq_refl))|specialize (IH p (or_intror Hin))];
        cbn [String.length]; lia.
Qed.

Lemma contains_char_app c a b :
  contains_char c (a ++ b) = contains_char c a || contains_char c b.
Proof.
  induction a as [|x r IH]; cbn [append contains_char]; [reflexivity|].
  rewrite IH. apply orb_assoc.
Qed.

Lemma split_char_nosep c a :
  contains_char c a = false -> split_char c a = [a].
Proof.
  induction a as [|x r IH]; cbn [contains_char split_char]; [reflexivity|].
  intros H. apply orb_false_iff in H as [Hx Hr]. rewrite Hx, (IH Hr). reflexivity.
Qed.

Lemma split_char_join c a rest :
  contains_char c a = false ->
  split_char c (a ++ String c rest) = a :: split_char c rest.
Proof.
  induction a as [|x r IH]; cbn [contains_char append split_char]; intros H.
  - rewrite Ascii.eqb_refl. reflexivity.
  - apply orb_false_iff in H as [Hx Hr]. rewrite Hx, (IH Hr). reflexivity.
Qed.

Fixpoint join_char (c : ascii) (l : list string) : string :=
  match l with
  | [] => EmptyString
  | [a] => a
  | a :: r => a ++ String c (join_char c r)
  end.

Lemma join_char_cons c a b r : join_char c (a :: b :: r) = (a ++ String c (join_char c (b :: r)))%string.
Proof. reflexivity. Qed.

Lemma split_char_join_all c l :
  l <> [] -> Forall (fun a => contains_char c a = false) l ->
  split_char c (join_char c l) = l.
Proof.
  induction l as [|a r IH]; intros Hne Hall; [congruence|].
  inversion Hall as [|? ? Ha Hr].
  destruct r as [|b r'].
  - apply split_char_nosep; assumption.
  - rewrite join_char_cons, split_char_join by assumption. f_equal. apply IH; [discriminate|assumption].
Qed.

Lemma contains_char_join c a b r :
  contains_char c (join_char c (a :: b :: r)) = true.
Proof.
  rewrite join_char_cons, contains_char_app. cbn [contains_char]. rewrite Ascii.eqb_refl. apply orb_true_r.
Qed.

Lemma length_snoc s c : String.length (s ++ String c "") = S (String.length s).
Proof. induction s as [|x r IH]; cbn [append String.length]; [reflexivity|]. rewrite IH. reflexivity. Qed.

Lemma last_char_snoc s c : last_char (s ++ String c "") = Some c.
Proof.
  induction s as [|x r IH]; [reflexivity|]. cbn [append last_char].
  destruct (r ++ String c "")%string eqn:E; [discriminate|exact IH].
Qed.

Lemma drop_last_snoc s c : drop_last (s ++ String c "") = s.
Proof.
  induction s as [|x r IH]; [reflexivity|]. cbn [append drop_last].
  destruct (r ++ String c "")%string eqn:E; [destruct r; discriminate|]. rewrite IH. reflexivity.
Qed.
