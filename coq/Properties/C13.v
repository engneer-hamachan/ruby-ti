(* C13 — consistently renaming user identifiers changes nothing but the names.
   What is proved: the two places where the NAME of an identifier (rather than its binding) decides what ti does.
   (1) parser.Read classifies a token by its lexical category only; (2) keyword arguments are paired with keyword
   parameters through two sorts, and the pairing is the same for every choice of names.  Everything else is
   exercised by renaming runs.  Proofs in RenameP.v. *)
From RT Require Import Model.Parser Model.Args Proofs.ArgsP Proofs.RenameP.
From Coq Require Import Permutation.

(* a local / method name: not upper-case-initial, not a symbol, not true/false, not a configured class name *)
Theorem C13_lower_names : forall is_uupper is_ulower builtin_classes s,
  plain_start is_uupper s = true -> in_builtin builtin_classes s = false ->
  list_N_eqb s s_true = false -> list_N_eqb s s_false = false ->
  classify is_uupper is_ulower builtin_classes s = KIdent s.
Proof. exact classify_lower. Qed.
Print Assumptions C13_lower_names.

(* a class name: upper-case-initial with a lower-case letter somewhere *)
Theorem C13_class_names : forall is_uupper is_ulower builtin_classes s,
  first_byte_upper is_uupper s = true -> existsb is_ulower s = true ->
  list_N_eqb s s_true = false -> list_N_eqb s s_false = false ->
  classify is_uupper is_ulower builtin_classes s = KClass s.
Proof. exact classify_class. Qed.
Print Assumptions C13_class_names.

(* FINDING (kept): an upper-case-initial name WITHOUT a lower-case letter (AB, A1) is a constant, not a class —
   renaming class Foo to AB changes its category *)
Theorem C13_class_without_lowercase_refuted :
  let up := fun c => (65 <=? c)%N && (c <=? 90)%N in let lo := fun c => (97 <=? c)%N && (c <=? 122)%N in
  classify up lo [] [70; 111; 111]%N = KClass [70; 111; 111]%N /\ classify up lo [] [65; 66]%N = KConst [65; 66]%N.
Proof. vm_compute. split; reflexivity. Qed.

(* keyword arguments meet their parameters for every choice of names *)
Theorem C13_keyword_pairing : forall (kws : list ty) (names : list string),
  Permutation (map t_key kws) names -> NoDup names ->
  map t_key (sort_by t_key kws) = sort_by (fun s => s) names.
Proof. exact keyword_pairing. Qed.
Print Assumptions C13_keyword_pairing.
