(* C04 — the editor query modes never crash or hang, whatever row is asked about.
   The row decides which value the evaluator captures as the target (p.LspSuggestTargetT, base.GlobT): the
   theorems quantify over EVERY captured target, every signature table, every inheritance map (cyclic ones
   included) and every behaviour of the evaluator short of a Go fatal error.  Proofs in QueryP.v, SuggestP.v. *)
From RT Require Import Model.Query Proofs.DriverP Proofs.SuggestP Proofs.QueryP.

(* --suggest, --hover, --define: the run ends with status 0, and every printed line is a well-formed
   %, @ or $ record on one line, or a one-line diagnostic of the target file *)
Theorem C04_query_modes : forall scoped mode m bl t is_union is_identifier variants glob_dc glob_meth sigs preloads tfile tsrc articles,
  exists ls, run_query true scoped mode m bl t is_union is_identifier variants glob_dc glob_meth sigs
                       preloads (tfile, tsrc) articles = Some (ls, 0%Z)
             /\ Forall (wf_qline tfile) ls.
Proof. exact run_query_ok. Qed.
Print Assumptions C04_query_modes.

(* the ancestor search of the completion filter ends on every inheritance map, with fuel |universe|+1 *)
Theorem C04_ancestor_search_terminates : forall m bl s n st, exists b uv',
  is_parent_class (S (List.length (universe m n))) m bl s st (universe m n) n false false = Some (b, uv').
Proof. exact is_parent_class_terminates. Qed.
Print Assumptions C04_ancestor_search_terminates.

(* the pinned code (no guard on the empty rendering): completion on an implicit receiver dies *)
Theorem C04_pinned_refuted :
  print_suggestions false false [] [] empty_target false false [] [some_sig] = None.
Proof. vm_compute. reflexivity. Qed.
Print Assumptions C04_pinned_refuted.

(* non-vacuity: a run whose evaluator panics on the queried row still prints only well-formed lines *)
Example C04_example :
  run_query true true QSuggest [] [] empty_target false false [] "" "" [(some_sig, "3")] []
            ("a.rb", fun _ => [{| st_row := 3%Z; st_out := OPanic ("x" ++ String (ascii_of_nat 10) "y"); st_infos := [] |}]) []
  = Some ([QDiag (LDiag "a.rb" 3%Z "internal error: x\ny")], 0%Z).
Proof. vm_compute. reflexivity. Qed.
