(* C09 — inferred types agree with literals and declared return types.
   Proved here: the two data-structure rules of the reference model that do not hold by definition.  Literals (their
   own class) and variables (latest assignment) are definitional in any reference model and are exercised end to
   end, as are declared return types.  Proofs in InferP.v, ExecTypeP.v. *)
From RT Require Import Model.Infer Proofs.InferP.
From RT Require Import Proofs.ExecTypeP Model.CondReturn.

(* a hash lookup with a literal key has the type stored last under that key, for every hash built by a literal and
   by h[k] = v in any order, and for every stored type — NilClass included *)
Theorem C09_hash_lookup : forall pairs k v, last_value pairs k = Some v -> hash_reference (hash_of pairs) k = v.
Proof. exact hash_lookup_stored. Qed.
Print Assumptions C09_hash_lookup.

Theorem C09_hash_lookup_missing : forall pairs k, last_value pairs k = None ->
  hash_reference (hash_of pairs) k = UnifyVariants (hash_of pairs).
Proof. exact hash_lookup_missing. Qed.
Print Assumptions C09_hash_lookup_missing.

(* the union of scalar types (what an array of scalars, a ternary, a reassigned element list unify to): one variant
   per distinct class, in order of first occurrence *)
Theorem C09_union_of_scalars : forall n es seen, forallb scalar es = true ->
  fold_left (fun acc v => append_variant (S n) acc v) es (MakeUnion seen) = MakeUnion (seen ++ distinct_kinds seen es).
Proof. exact union_of_scalars. Qed.
Print Assumptions C09_union_of_scalars.

(* taking a stored nil for a missing key is refuted by {a: nil, b: 1}[:a] *)
Theorem C09_nil_as_missing_refuted :
  let h := hash_of [("a", MakeNil); ("b", MakeIntLit)] in
  hash_reference h "a" = MakeNil /\ hash_reference_nil_as_missing h "a" <> MakeNil.
Proof. vm_compute. split; [reflexivity | discriminate]. Qed.

(* "a certainly-valid builtin call has its declared return type with Self, Unify, OptionalUnify, Argument, SelfArray,
   KeyValueArray and union returns resolved as documented": on the model of calculateExecutionType (tied to the code
   through a hook; the tie also checks that the receiver is left as it was) *)
Theorem C09_return_self : forall recv blk args ret, String.eqb (t_meth ret) "new" = false -> t_tag ret = SELF ->
  ExecType recv args blk ret = recv.
Proof. exact (ExecType_tag SELF). Qed.
Print Assumptions C09_return_self.
Theorem C09_return_unify : forall recv blk args ret, String.eqb (t_meth ret) "new" = false -> t_tag ret = UNIFY ->
  ExecType recv args blk ret = UnifyVariants recv.
Proof. exact (ExecType_tag UNIFY). Qed.
Print Assumptions C09_return_unify.
Theorem C09_return_optional_unify : forall recv blk args ret, String.eqb (t_meth ret) "new" = false -> t_tag ret = OPTIONAL_UNIFY ->
  ExecType recv args blk ret = MakeUnifiedT (t_vars (AppendVariant recv MakeNil)).
Proof. exact (ExecType_tag OPTIONAL_UNIFY). Qed.
Print Assumptions C09_return_optional_unify.
Theorem C09_return_argument : forall recv blk args ret, String.eqb (t_meth ret) "new" = false -> t_tag ret = ARGUMENT ->
  ExecType recv args blk ret = match args with [] => MakeNil | [a] => a | _ => array_of args end.
Proof. exact (ExecType_tag ARGUMENT). Qed.
Print Assumptions C09_return_argument.
Theorem C09_return_self_array : forall recv blk args ret, String.eqb (t_meth ret) "new" = false -> t_tag ret = SELF_ARRAY ->
  ExecType recv args blk ret = MakeArray (t_vars recv).
Proof. intros recv blk args ret. rewrite <- array_of_MakeArray. exact (ExecType_tag SELF_ARRAY recv blk args ret). Qed.
Print Assumptions C09_return_self_array.
Theorem C09_return_keyvalue_array : forall recv blk args ret, String.eqb (t_meth ret) "new" = false -> t_tag ret = KEYVALUE_ARRAY ->
  ExecType recv args blk ret = array_of (map get_key_value (t_vars recv)).
Proof. exact (ExecType_tag KEYVALUE_ARRAY). Qed.
Print Assumptions C09_return_keyvalue_array.
Theorem C09_return_union : forall recv blk args ret, String.eqb (t_meth ret) "new" = false -> t_tag ret = UNION ->
  ExecType recv args blk ret = MakeUnifiedT (map (exec_type (ty_size ret) recv args blk) (t_vars ret)).
Proof. exact (ExecType_tag UNION). Qed.
Print Assumptions C09_return_union.

(* conditional return types (`is_conditional`): with an optional first parameter the alternative is chosen by the number of
   arguments that are not blocks — `arr.last` gets the first alternative, `arr.last(2)` the second; None is the Go code
   indexing past the alternatives (the tie checks the panic too) *)
Theorem C09_conditional_return_by_count : forall d rest ret args whole, has_default d = true ->
  cond_return (d :: rest) ret args whole = nth_error (t_vars ret) (List.length (non_block args)).
Proof. intros d rest ret args whole H. unfold cond_return. cbn [cond_return_from]. rewrite H. reflexivity. Qed.
Print Assumptions C09_conditional_return_by_count.

(* a plain parameter: the alternative has the index of the first argument of the parameter's kind (or of any kind, when one
   of the two is untyped); no such argument and no further parameter: the declared type itself *)
Theorem C09_conditional_return_by_kind : forall d ret args whole, has_default d = false -> is_union_type d = false ->
  cond_return [d] ret args whole =
  match find_index (same_or_any d) args 0 with Some idx => nth_error (t_vars ret) idx | None => Some whole end.
Proof. intros d ret args whole H1 H2. unfold cond_return. cbn [cond_return_from]. rewrite H1, H2. reflexivity. Qed.
Print Assumptions C09_conditional_return_by_kind.

Example C09_conditional_return_example :
  let opt := set_hd MakeAnyInt true in
  let O := NewT "OptiionalUnify" OPTIONAL_UNIFY (VStr "optionalUnify") in
  let S := NewT "Self" SELF (VStr "self") in
  let recv := MakeArray [MakeIntLit; MakeString "s"] in
  let pick args := match cond_return [opt] (MakeUnion [O; S]) args (MakeUnion [O; S]) with Some t => TypeToString (ExecType recv args zero_ty t) | None => "panic" end in
  (pick [], pick [MakeIntLit], pick [MakeIntLit; MakeIntLit]) = ("Union<Integer String NilClass>", "Array<Integer String>", "panic").
Proof. vm_compute. reflexivity. Qed.

Example C09_return_example :
  let recv := MakeArray [MakeIntLit; MakeString "s"] in
  let U := NewT "Unify" UNIFY (VStr "unify") in
  let O := NewT "OptiionalUnify" OPTIONAL_UNIFY (VStr "optionalUnify") in
  (TypeToString (ExecType recv [] zero_ty U), TypeToString (ExecType recv [] zero_ty O), TypeToString (ExecType recv [] zero_ty (MakeUnion [O; MakeBool])))
  = ("Union<Integer String>", "Union<Integer String NilClass>", "Union<Integer String NilClass Bool>").
Proof. vm_compute. reflexivity. Qed.

Example C09_example :
  t_vars (fold_left (fun acc v => AppendVariant acc v) [MakeIntLit; MakeString "s"; MakeIntLit; MakeFloatLit; MakeString "t"] (MakeUnion []))
  = [MakeIntLit; MakeString "s"; MakeFloatLit].
Proof. vm_compute. reflexivity. Qed.
