(* C14 — keyword argument order at a call site is irrelevant.  Proofs in Proofs/ArgsP.v. *)
From Coq Require Import Permutation.
From RT Require Import Model.Args Proofs.ArgsP.

(* the argument list handed to the walk is the same for every order of the keyword arguments *)
Theorem C14_sorted_arguments : forall l l',
  Permutation l l' ->
  filter (fun t => negb (is_keyvalue_type t)) l = filter (fun t => negb (is_keyvalue_type t)) l' ->
  NoDup (map t_key (filter is_keyvalue_type l)) ->
  prioritize_args l = prioritize_args l'.
Proof.
  intros l l' Hp Hpos Hnd. unfold prioritize_args. rewrite Hpos. f_equal.
  apply sort_by_perm; [apply filter_perm; exact Hp | exact Hnd].
Qed.
Print Assumptions C14_sorted_arguments.

(* hence result and parameter bindings of checkAndPropagateArgs do not depend on that order: any model
   variant, any round *)
Theorem C14_call_site : forall V cr ra dargs t pos kws kws',
  forallb (fun a => negb (is_keyvalue_type a)) pos = true ->
  forallb is_keyvalue_type kws = true ->
  Permutation kws kws' -> NoDup (map t_key kws) ->
  check_args V cr ra dargs t (pos ++ kws) = check_args V cr ra dargs t (pos ++ kws').
Proof.
  intros V cr ra dargs t pos kws kws' Hpos Hkw Hp Hnd. unfold check_args.
  rewrite !prioritize_args_split, (sort_by_perm t_key kws kws' Hp Hnd); trivial.
  rewrite forallb_forall in Hkw. apply forallb_forall. intros x Hx. apply Hkw, (Permutation_in _ (Permutation_sym Hp)), Hx.
Qed.
Print Assumptions C14_call_site.

(* Go's sort.Slice / sort.Strings enter as the insertion sort `sort_by`; for pairwise distinct keys any
   correct sort returns the same list, which is the content of this lemma *)
Theorem C14_sort_is_canonical : forall (l l' : list ty),
  Permutation l l' -> NoDup (map t_key l) -> sort_by t_key l = sort_by t_key l'.
Proof. exact (sort_by_perm t_key). Qed.
Print Assumptions C14_sort_is_canonical.

Example C14_hyps_satisfiable :
  let kws := [MakeKeyValue "b:" MakeIntLit; MakeKeyValue "a:" (MakeString "s")] in
  forallb is_keyvalue_type kws = true /\ NoDup (map t_key kws).
Proof. split; [reflexivity|]. repeat constructor; cbn; intuition discriminate. Qed.
