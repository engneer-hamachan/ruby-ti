(* C24 — the LLM navigator's call graph matches the source.
   The recorder is modelled over the sequence of call-site evaluations (four rounds, condition scans included);
   the printer lists what is filed under the method's key.  Proofs in CallGraphP.v. *)
From RT Require Import Model.CallGraph Proofs.CallGraphP.

(* the caller entries of a method are exactly the call sites that reach it — one entry each, in source order, with
   the row and the enclosing method — however often a site was evaluated in other rounds or by a condition scan *)
Theorem C24_callers : forall ss k,
  callers_of (record_all ss) k = map (fun s => (s_row s, s_caller s)) (filter (fun s => mkey_eqb (s_callee s) k) (real_sites ss)).
Proof. exact callers_exact. Qed.
Print Assumptions C24_callers.

Theorem C24_total_callers : forall ss k,
  total (callers_of (record_all ss) k) = List.length (filter (fun s => mkey_eqb (s_callee s) k) (real_sites ss)).
Proof. intros ss k. rewrite callers_exact. apply map_length. Qed.
Print Assumptions C24_total_callers.

(* every listed callee is a call written in the method's body, and every such call is listed *)
Theorem C24_callees : forall ss k,
  callees_of (record_all ss) k = map (fun s => (s_row s, s_callee s)) (filter (fun s => mkey_eqb (s_caller s) k) (real_sites ss)).
Proof. exact callees_exact. Qed.
Print Assumptions C24_callees.

(* two calls of one method on one row are two entries; a call in a condition is one *)
Example C24_example :
  let tick := ("", "", "tick") in let host := ("", "", "host") in
  let s row scan chk := {| s_row := row; s_callee := tick; s_caller := host; s_check_round := chk; s_condition_scan := scan |} in
  callers_of (record_all [s 8%Z false false; s 8%Z true true; s 8%Z false true; s 16%Z false true; s 16%Z false true]) tick
  = [(8%Z, host); (16%Z, host); (16%Z, host)].
Proof. vm_compute. reflexivity. Qed.
