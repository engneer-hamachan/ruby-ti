(* C03 — tokenizing any text terminates and consumes the whole input.
   Proofs in Proofs/LexerP.v, Proofs/ParserP.v, Proofs/StreamP.v, Proofs/TablesP.v. *)
From RT Require Import Model.Parser Proofs.LexerP Proofs.ParserP Proofs.TablesP Proofs.StreamP Generated.
Open Scope N_scope.

(* what the theorems assume of unicode.IsSpace / unicode.IsDigit (true of Go's tables, below) *)
Definition unicode_ok (is_uspace is_udigit : N -> bool) : Prop :=
  is_uspace 0 = false /\ is_udigit 0 = false /\ is_uspace ch_dot = false /\
  forall c, is_udigit c = true ->
    ((c =? 120) || (c =? 111) || (c =? 98)) = false /\ (c =? ch_under) = false /\ (c =? ch_dot) = false.

(* (a) + (b): for every rune sequence, advancing the lexer reaches end of stream with fuel linear in
   the input, after at most 3*|s|+3 tokens, and only when every rune has been consumed *)
Theorem C03_tokenizing_terminates_and_consumes :
  forall is_uspace is_udigit, unicode_ok is_uspace is_udigit ->
  forall s : list N,
  exists ts lf,
    lex_all is_uspace is_udigit fixed_lex (3 * length s + 4) (3 * length s + 7) (lx_new s) = Some (ts, lf) /\
    (length ts <= 3 * length s + 3)%nat /\
    rest (rd lf) = [] /\ hist (rd lf) = [] /\ ungot (rd lf) = false /\
    Forall tok_wf ts.
Proof.
  intros sp dg (H1 & H2 & H3 & H4) s.
  exact (lexer_total sp dg fixed_lex eq_refl eq_refl H1 H2 H3 H4 s).
Qed.
Print Assumptions C03_tokenizing_terminates_and_consumes.

(* each successful Advance strictly decreases the potential phi (so the bound above is per step) *)
Theorem C03_every_token_makes_progress :
  forall is_uspace is_udigit, unicode_ok is_uspace is_udigit ->
  forall fuel l, inv is_udigit (rd l) -> (phi (rd l) + 3 < fuel)%nat ->
  exists b l', advance is_uspace is_udigit fixed_lex fuel l = Some (b, l') /\ inv is_udigit (rd l') /\
    (b = true -> (phi (rd l') < phi (rd l))%nat /\ tok_wf l') /\
    (b = false -> rd_eof (rd l') = true).
Proof.
  intros sp dg (H1 & H2 & H3 & H4) fuel l.
  exact (advance_ok sp dg fixed_lex eq_refl eq_refl H1 H2 H3 H4 fuel l).
Qed.
Print Assumptions C03_every_token_makes_progress.

(* (c): every token the parser builds from the stream has a defined kind; `read error` never *)
Theorem C03_read_never_errors :
  forall is_uspace is_udigit is_uupper is_ulower builtin_classes, unicode_ok is_uspace is_udigit ->
  forall fuel p, inv is_udigit (rd (lx p)) -> pwf p -> (phi (rd (lx p)) + 3 < fuel)%nat ->
  exists r p', parser_read is_uspace is_udigit is_uupper is_ulower fixed_lex builtin_classes fuel p = Some (r, p') /\
    r <> RError /\ inv is_udigit (rd (lx p')) /\ pwf p' /\
    (phi (rd (lx p')) <= phi (rd (lx p)))%nat /\
    (pungot p = false -> r <> REos -> (phi (rd (lx p')) < phi (rd (lx p)))%nat) /\
    (pungot p = false -> r = REos -> rd_eof (rd (lx p')) = true).
Proof.
  intros sp dg up lo bc (H1 & H2 & H3 & H4) fuel p.
  exact (parser_read_ok sp dg up lo fixed_lex bc eq_refl eq_refl eq_refl H1 H2 H3 H4 fuel p).
Qed.
Print Assumptions C03_read_never_errors.

(* Go's own unicode tables (regenerated from the toolchain on every run) meet the assumption *)
Theorem C03_go_unicode_ok : unicode_ok go_is_space go_is_digit.
Proof. exact (conj go_space_0 (conj go_digit_0 (conj go_space_dot go_digit_plain))). Qed.
Print Assumptions C03_go_unicode_ok.

(* the model's character tables are the ones the current source declares *)
Theorem C03_tables :
  same_set single_tokens lexer_single_tokens = true /\ lexer_emits_dot = true /\
  same_set (ch_btick :: read_puncts) parser_puncts = true /\
  subset (ch_dot :: lexer_single_tokens) parser_puncts = true /\
  same_set model_ident_nonchars ident_nonchars = true.
Proof.
  exact (conj (proj1 tbl_single_tokens) (conj (proj2 tbl_single_tokens)
        (conj tbl_read_puncts (conj tbl_lexer_subset_parser tbl_ident_nonchars)))).
Qed.
Print Assumptions C03_tables.

(* non-vacuity: the initial state of every input satisfies the invariant and the parser precondition *)
Example C03_initial_state_ok : forall s, inv go_is_digit (rd (lx_new s)) /\ pwf (ps_new s).
Proof. intros s. split; [left; reflexivity|]. right; left; reflexivity. Qed.

(* all of the above composed, with Go's own tables and no hypothesis left: for every rune sequence, parser.Read driven
   to end of stream (read_all — the very term the correspondence evaluates against the code) answers with tokens of
   defined kinds only, then end of stream, after at most 3*|s|+3 tokens, with fuel linear in the input *)
Theorem C03_read_stream_go : forall bc (s : list N),
  exists toks row erow,
    read_all go_is_space go_is_digit go_is_upper go_is_lower fixed_lex bc (3 * length s + 4) (3 * length s + 7) (ps_new s)
      = Some (toks ++ [(REos, row, erow)]) /\
    Forall is_tok toks /\ (length toks <= 3 * length s + 3)%nat.
Proof.
  intros bc. destruct C03_go_unicode_ok as (H1 & H2 & H3 & H4).
  exact (read_all_total go_is_space go_is_digit go_is_upper go_is_lower bc H1 H2 H3 H4).
Qed.
Print Assumptions C03_read_stream_go.
