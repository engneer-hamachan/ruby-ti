(* C19 — config file names and splitting do not matter.  Proofs in Proofs/LoaderP.v.
   `methods_at w (frame, class, method, static)` is what every method lookup reads: the declaration of that key
   followed by its overloads. *)
From Coq Require Import Permutation.
From RT Require Import Model.Loader Proofs.LoaderP.

(* the loader (executable model, repaired code) computes exactly the declarative table: the declarations of a
   key, in file order *)
Theorem C19_loader_is_declarative : forall cds k, methods_at (load cds) k = spec_methods cds k.
Proof. exact load_methods. Qed.
Print Assumptions C19_loader_is_declarative.

(* renaming the files (= permuting the load order), one class per file: every lookup sees the same declarations *)
Theorem C19_file_order_irrelevant : forall cds cds' k,
  Permutation cds cds' -> NoDup (map class_id cds) -> methods_at (load cds) k = methods_at (load cds') k.
Proof. intros cds cds' k Hp Hnd. rewrite !load_methods. apply spec_methods_perm; assumption. Qed.
Print Assumptions C19_file_order_irrelevant.

(* splitting one class's method declarations over two files, loaded in either order (the overloads of one
   method staying together) *)
Theorem C19_split_irrelevant : forall cd i1 i2 c1 c2 rest k,
  (forall m, filter (fun d => String.eqb m (md_name d)) i1 = [] \/ filter (fun d => String.eqb m (md_name d)) i2 = []) ->
  (forall m, filter (fun d => String.eqb m (md_name d)) c1 = [] \/ filter (fun d => String.eqb m (md_name d)) c2 = []) ->
  spec_methods (with_methods cd (i1 ++ i2) (c1 ++ c2) :: rest) k = spec_methods (with_methods cd i1 c1 :: with_methods cd i2 c2 :: rest) k /\
  spec_methods (with_methods cd (i1 ++ i2) (c1 ++ c2) :: rest) k = spec_methods (with_methods cd i2 c2 :: with_methods cd i1 c1 :: rest) k.
Proof.
  intros cd i1 i2 c1 c2 rest k Hi Hc. destruct (decls_for_split cd i1 i2 c1 c2 k Hi Hc) as [Happ Hcomm].
  unfold spec_methods. cbn [flat_map]. rewrite !app_assoc, <- Hcomm, <- Happ. split; reflexivity.
Qed.
Print Assumptions C19_split_irrelevant.

Example C19_hyps_satisfiable :
  NoDup (map class_id [ {| cd_frame := "Builtin"; cd_class := "K"; cd_ims := []; cd_cms := []; cd_consts := []; cd_extends := ["P"] |};
                        {| cd_frame := "Builtin"; cd_class := "P"; cd_ims := []; cd_cms := []; cd_consts := []; cd_extends := [] |} ]).
Proof. repeat constructor; cbn; intuition discriminate. Qed.
