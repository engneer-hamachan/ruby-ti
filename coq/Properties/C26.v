(* C26 — c2json signatures accept exactly the argument counts the C binding accepts.
   inferArguments is modelled on what the regular expressions extract (Model/C2Json.v); the emitted declaration is
   read the way the loader reads it (`?T` = default, key "*args" = rest, Block declarations take no positional).
   Proofs in C2JsonP.v, ArgsP.v, RestArityP.v. *)
From RT Require Import Model.C2Json Model.Args Proofs.ArgsP Proofs.C2JsonP Generated.
Local Infix "+++" := String.append (right associativity, at level 60).

(* the MRB_ARGS path: the declaration has exactly the counts of the definition, for every REQ/OPT/REST/POST/BLOCK *)
Theorem C26_shape_aspec : forall a gets guards, aspec_ok a = true ->
  (a_none a || a_any a || negb (Nat.eqb (a_req a) 0 && Nat.eqb (a_opt a) 0 && negb (a_rest a) && Nat.eqb (a_post a) 0 && negb (a_block a))
   || Nat.eqb (List.length gets) 0) = true ->
  decl_shape false (infer_arguments a None gets guards) empty_shape = aspec_shape a.
Proof.
  intros a gets guards Hok H. unfold infer_arguments, aspec_shape.
  destruct (a_none a); [reflexivity|]. destruct (a_any a); [reflexivity|].
  destruct (_ && negb (a_block a)); [|exact (infer_counts_shape a Hok)].
  apply Nat.eqb_eq in H. destruct gets; [exact (infer_counts_shape a Hok) | discriminate].
Qed.
Print Assumptions C26_shape_aspec.

(* the mrb_get_args path: for every format string in which `*` is not followed by argument letters *)
Theorem C26_shape_fmt : forall a f gets guards, a_none a = false -> a_any a = false -> rest_last false f = true ->
  decl_shape false (infer_arguments a (Some f) gets guards) empty_shape = fmt_shape false f empty_shape.
Proof. intros a f gets guards H1 H2 Hr. unfold infer_arguments. rewrite H1, H2. apply infer_fmt_shape, Hr. Qed.
Print Assumptions C26_shape_fmt.

(* a declaration of req untyped and opt defaulted untyped parameters, through checkAndPropagateArgs in the check
   round: a call with k positional arguments is accepted exactly when req <= k <= req + opt *)
Theorem C26_arity_positional : forall U Uo, is_any_type U = true -> is_any_type Uo = true ->
  has_default U = false -> has_default Uo = true ->
  forall req opt names t args,
  forallb plain_name names = true -> forallb plain_arg args = true -> forallb (declared t) names = true ->
  map (param_ty t) names = (repeat U req ++ repeat Uo opt)%list ->
  (fst (check_args fixed_args true false names t args) = COk <-> req <= List.length args <= req + opt).
Proof.
  intros U Uo H1 H2 H3 H4 req opt names t args Hn Ha Hd Hp.
  rewrite (check_args_positional true false names t args Hn Ha Hd). cbn [fst]. rewrite Hp.
  rewrite positional_arity, !repeat_length; [reflexivity | |];
    apply forallb_forall; intros p ->%repeat_spec; [rewrite H1, H3 | rewrite H2, H4]; reflexivity.
Qed.
Print Assumptions C26_arity_positional.

(* the two parameter types the theorem is about are what the loader makes of "Untyped" and "?Untyped" *)
Example C26_untyped_params :
  let U := parse_argument fixed_cfg {| ja_types := ["Untyped"]; ja_key := ""; ja_ast := false; ja_def := false |} in
  let Uo := parse_argument fixed_cfg {| ja_types := ["?Untyped"]; ja_key := ""; ja_ast := false; ja_def := false |} in
  is_any_type U = true /\ is_any_type Uo = true /\ has_default U = false /\ has_default Uo = true /\
  is_builtin U = true /\ is_builtin Uo = true.
Proof. vm_compute. repeat split. Qed.

(* PARTIAL (kept findings): with REST the walk of checkAndPropagateArgs is not characterised by a theorem; the
   counts it accepts are computed below for the two shapes on which it departs from the binding *)
Definition untyped_decl (t k : string) : ty :=
  parse_argument fixed_cfg {| ja_types := [t]; ja_key := k; ja_ast := false; ja_def := false |}.
Definition int_arg : ty := Ty INT "Integer" VInt64 None "" "" "" [] no_flags "" "" "" [] [] [].
Definition accepts_decl (V : args_variant) (ds : list targ) (k : nat) : bool :=
  let ptys := map (fun d => untyped_decl (fst d) (snd d)) ds in
  let names := map (fun ip => if is_keyvalue_type (snd ip) then t_key (snd ip) else "p" +++ String (ascii_of_nat (48 + fst ip)) "")
                   (combine (seq 0 (List.length ptys)) ptys) in
  let t := map (fun np => (strip_star (fst np), if is_keyvalue_type (snd np) then match t_vt (snd np) with Some v => v | None => snd np end else snd np))
               (combine names ptys) in
  match fst (check_args V true false names t (repeat int_arg k)) with COk => true | _ => false end.

(* REQ(1)|REST()|BLOCK(): the binding takes 1 or more; before the repair the trailing `?Block` reserved an argument
   and the declaration rejected 2 and more (repaired by a fix: commit; the general statement is C26_arity_rest_block) *)
Theorem C26_rest_block_pinned_refuted :
  let a := {| a_none := false; a_any := false; a_req := 1; a_opt := 0; a_rest := true; a_post := 0; a_block := true |} in
  accepts (aspec_shape a) 2 = true /\ accepts_decl rest_pinned_args (infer_arguments a None [] []) 2 = false /\
  map (accepts (aspec_shape a)) (seq 0 6) = map (accepts_decl fixed_args (infer_arguments a None [] [])) (seq 0 6).
Proof. vm_compute. repeat split; reflexivity. Qed.

(* REQ(1)|OPT(1)|REST()|POST(1): the binding needs 2; the declaration takes 1 and refuses 2 *)
Theorem C26_opt_post_refuted :
  let a := {| a_none := false; a_any := false; a_req := 1; a_opt := 1; a_rest := true; a_post := 1; a_block := false |} in
  accepts (aspec_shape a) 1 = false /\ accepts_decl fixed_args (infer_arguments a None [] []) 1 = true /\
  accepts (aspec_shape a) 2 = true /\ accepts_decl fixed_args (infer_arguments a None [] []) 2 = false.
Proof. vm_compute. repeat split; reflexivity. Qed.

(* and REQ|REST|POST without OPT agrees, e.g. *)
Example C26_rest_post_example :
  let a := {| a_none := false; a_any := false; a_req := 1; a_opt := 0; a_rest := true; a_post := 1; a_block := false |} in
  map (accepts (aspec_shape a)) (seq 0 6) = map (accepts_decl fixed_args (infer_arguments a None [] [])) (seq 0 6).
Proof. vm_compute. reflexivity. Qed.

(* with a rest parameter: required ++ [rest] ++ trailing parameters (REQ(n)|REST()|POST(m), or a format `…*`), declared by
   the configuration with types that admit everything: checkAndPropagateArgs in the check round accepts k positional
   arguments exactly when n + m <= k *)
From RT Require Import Proofs.RestArityP.
Theorem C26_arity_rest : forall t star,
  is_star star = true -> is_dstar star = false ->
  match tget t (drop1 star) with Some dt => is_builtin dt | None => false end = true -> is_named_darg star = false ->
  forall P Q args, forallb (req_any t) P = true -> forallb (req_any t) Q = true -> forallb plain_arg args = true ->
  (fst (check_args fixed_args true false (P ++ star :: Q) t args) = COk <-> List.length P + List.length Q <= List.length args).
Proof.
  intros t star H1 H2 H3 H4 P Q args HP HQ Ha.
  pose proof (check_args_rest_defaults t star H1 H2 H3 H4 P Q [] args HP HQ eq_refl Ha) as H.
  rewrite app_nil_r in H. exact H.
Qed.
Print Assumptions C26_arity_rest.

(* non-vacuity: REQ(1)|REST()|POST(1) as the loader declares it *)
Example C26_arity_rest_example :
  let U := untyped_decl "Untyped" "" in
  let R := match t_vt (untyped_decl "Untyped" "*args") with Some v => v | None => U end in
  let t := [("p0", U); ("args", R); ("p2", U)] in
  is_star "*args" = true /\ is_dstar "*args" = false /\ is_named_darg "*args" = false /\
  match tget t (drop1 "*args") with Some dt => is_builtin dt | None => false end = true /\
  forallb (req_any t) ["p0"] = true /\ forallb (req_any t) ["p2"] = true /\
  map (fun k => match fst (check_args fixed_args true false ["p0"; "*args"; "p2"] t (repeat int_arg k)) with COk => true | _ => false end) (seq 0 5)
  = [false; false; true; true; true].
Proof. vm_compute. repeat split; reflexivity. Qed.

(* ... and the same followed by parameters that have a default — the `?Block` c2json emits for MRB_ARGS_BLOCK() / `&`:
   they reserve no argument, REQ(n)|REST()|POST(m)|BLOCK() is accepted exactly from n + m arguments on *)
Theorem C26_arity_rest_block : forall t star,
  is_star star = true -> is_dstar star = false ->
  match tget t (drop1 star) with Some dt => is_builtin dt | None => false end = true -> is_named_darg star = false ->
  forall P Q D args, forallb (req_any t) P = true -> forallb (req_any t) Q = true -> forallb (opt_def t) D = true ->
  forallb plain_arg args = true ->
  (fst (check_args fixed_args true false (P ++ star :: Q ++ D) t args) = COk <-> List.length P + List.length Q <= List.length args).
Proof. intros t star H1 H2 H3 H4 P Q D args. exact (check_args_rest_defaults t star H1 H2 H3 H4 P Q D args). Qed.
Print Assumptions C26_arity_rest_block.

Example C26_arity_rest_block_example :
  let U := untyped_decl "Untyped" "" in
  let B := untyped_decl "?Block" "" in
  let R := match t_vt (untyped_decl "Untyped" "*args") with Some v => v | None => U end in
  let t := [("p0", U); ("args", R); ("p2", B)] in
  forallb (req_any t) ["p0"] = true /\ forallb (opt_def t) ["p2"] = true /\
  map (fun k => match fst (check_args fixed_args true false ["p0"; "*args"; "p2"] t (repeat int_arg k)) with COk => true | _ => false end) (seq 0 5)
  = [false; true; true; true; true].
Proof. vm_compute. repeat split; reflexivity. Qed.
