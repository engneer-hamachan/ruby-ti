(* C07 — definite misuse of configured builtin methods is reported.
   Function-level statements over the faithful models of checkArgType / checkAndPropagateArgs
   (repaired code).  Proofs in Proofs/ArgsP.v. *)
From RT Require Import Model.CallSpec Proofs.ArgsP.

(* an argument all of whose possible classes the declaration rejects fails the check, in every round *)
Theorem C07_argument_rejected : forall d a,
  flat d = true -> flat a = true -> known a = true -> variants_of a <> [] ->
  forallb (fun k => negb (decl_admits d k)) (possible a) = true ->
  check_arg_type fixed_args d a = false.
Proof. intros d a Hfd _. exact (check_arg_type_sound d a Hfd). Qed.
Print Assumptions C07_argument_rejected.

(* on a positional call of a configured method the walk of checkAndPropagateArgs is exactly the
   declarative rule pos_spec (parameter i takes argument i; missing ones need a default; no surplus) *)
Theorem C07_positional_call_rule : forall cr ra names t args,
  forallb plain_name names = true -> forallb plain_arg args = true -> forallb (declared t) names = true ->
  check_args fixed_args cr ra names t args = (pos_spec cr ra (map (param_ty t) names) args, t).
Proof. exact check_args_positional. Qed.
Print Assumptions C07_positional_call_rule.

(* an argument count outside what the declaration accepts is an error in the check round *)
Theorem C07_too_many_reported : forall ptys args,
  List.length ptys < List.length args -> exists k, pos_spec true false ptys args = CErr k.
Proof. intros ptys args Hlen%Nat.leb_gt. apply pos_spec_refuses. unfold arity_ok. rewrite Hlen. reflexivity. Qed.
Print Assumptions C07_too_many_reported.

Theorem C07_too_few_reported : forall ptys args,
  (exists i, List.length args <= i < List.length ptys /\ has_default (nth i ptys zero_ty) = false) ->
  exists k, pos_spec true false ptys args = CErr k.
Proof.
  intros ptys args (i & Hi & Hnd). apply pos_spec_refuses. unfold arity_ok.
  destruct (forallb has_default (skipn (List.length args) ptys)) eqn:E; [|rewrite andb_false_r; reflexivity].
  rewrite (proj1 (forallb_skipn_nth _ zero_ty _ _) E i Hi) in Hnd. discriminate.
Qed.
Print Assumptions C07_too_few_reported.

(* the spec predicate used end-to-end ("the call certainly fails": count outside the declaration, or an
   argument all of whose classes are rejected) implies an error of the modelled check in the check round *)
Theorem C07_certain_failure_reported : forall ptys args,
  certainly_fails ptys args = true -> exists k, pos_spec true false ptys args = CErr k.
Proof. exact certainly_fails_reported. Qed.
Print Assumptions C07_certain_failure_reported.

(* the pinned code accepted an object of the wrong class inside a union: witness kept *)
Theorem C07_pinned_refuted :
  exists d a, flat d = true /\ flat a = true /\ known a = true /\ variants_of a <> [] /\
              forallb (fun k => negb (decl_admits d k)) (possible a) = true /\
              check_arg_type pinned_args d a = true.
Proof. exists (MakeUnion [MakeObject "K"; MakeNil]), (MakeObject "L"). repeat split. discriminate. Qed.

Example C07_hyps_satisfiable :
  flat (MakeUnion [MakeObject "K"; MakeNil]) = true /\ known (MakeUnion [MakeObject "L"; MakeAnyInt]) = true /\
  forallb (fun k => negb (decl_admits (MakeUnion [MakeObject "K"; MakeNil]) k))
          (possible (MakeUnion [MakeObject "L"; MakeAnyInt])) = true.
Proof. repeat split. Qed.
