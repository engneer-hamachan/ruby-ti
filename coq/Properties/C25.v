(* C25 — rbs2json conversion is deterministic and keeps signature shape.  Proofs in Rbs2JsonP.v, Rbs2JsonTermP.v. *)
From RT Require Import Model.Rbs2Json Proofs.Rbs2JsonP.
From Coq Require Import Permutation.

(* the arguments of an overload come out as: required positionals, optional positionals (is_default), rest
   (is_asterisk), trailing positionals, required keywords, optional keywords (is_default) — with one argument per
   typed parameter — whatever convertType answers *)
Theorem C25_order : forall conv f, exists g1 g2 g3 g4 g5 g6,
  convert_arguments conv f = g1 ++ g2 ++ g3 ++ g4 ++ g5 ++ g6 /\
  Forall is_req g1 /\ List.length g1 = n_typed (ft_req f) /\
  Forall is_opt g2 /\ List.length g2 = n_typed (ft_opt f) /\
  Forall is_rest g3 /\ List.length g3 = (match ft_rest f with Some _ => 1 | None => 0 end) /\
  Forall is_req g4 /\ List.length g4 = n_typed (ft_trail f) /\
  Forall is_kwreq g5 /\ Forall is_kwopt g6.
Proof.
  intros conv f. unfold convert_arguments. do 6 eexists. split; [reflexivity|].
  split; [apply flat_typed_kinds; intros; repeat split|]. split; [apply flat_typed_length|].
  split; [apply flat_typed_kinds; intros; repeat split|]. split; [apply flat_typed_length|].
  split; [destruct (ft_rest f); repeat constructor|]. split; [destruct (ft_rest f); reflexivity|].
  split; [apply flat_typed_kinds; intros; repeat split|]. split; [apply flat_typed_length|].
  (* the two keyword groups: every name contributes arguments keyed "name:" *)
  split; apply Forall_flat_map, Forall_forall; intros n _; apply flat_typed_kinds; intros ts;
    (split; [apply append_colon_nonempty|split; reflexivity]).
Qed.
Print Assumptions C25_order.

(* the keyword parameters are Go maps: for ANY two orders in which the maps are enumerated the output is the same *)
Theorem C25_deterministic : forall conv f f',
  ft_req f = ft_req f' -> ft_opt f = ft_opt f' -> ft_rest f = ft_rest f' -> ft_trail f = ft_trail f' ->
  NoDup (map fst (ft_kwreq f)) -> NoDup (map fst (ft_kwopt f)) ->
  Permutation (ft_kwreq f) (ft_kwreq f') -> Permutation (ft_kwopt f) (ft_kwopt f') ->
  convert_arguments conv f = convert_arguments conv f'.
Proof.
  intros conv f f' E1 E2 E3 E4 N1 N2 P1 P2. unfold convert_arguments.
  rewrite E1, E2, E3, E4, (kw_group_perm conv _ _ _ N1 P1), (kw_group_perm conv _ _ _ N2 P2). reflexivity.
Qed.
Print Assumptions C25_deterministic.

(* non-vacuity: (Integer a, ?String b, *untyped, Symbol z, k: Integer, j: Integer, ?o: Float) *)
Definition ci (n : string) : rtype := RT "class_instance" n [] None [] "".
Definition example_ft (swap : bool) : functype :=
  let k := ("k", {| rp_type := Some (ci "::Integer"); rp_name := "k" |}) in
  let j := ("j", {| rp_type := Some (ci "Integer"); rp_name := "j" |}) in
  {| ft_req := [{| rp_type := Some (ci "::Integer"); rp_name := "a" |}];
     ft_opt := [{| rp_type := Some (ci "String"); rp_name := "b" |}];
     ft_rest := Some {| rp_type := Some (RT "untyped" "" [] None [] ""); rp_name := "r" |};
     ft_trail := [{| rp_type := Some (ci "Symbol"); rp_name := "z" |}];
     ft_kwreq := if swap then [j; k] else [k; j];
     ft_kwopt := [("o", {| rp_type := Some (ci "Float"); rp_name := "o" |})]; ft_kwrest := None |}.
Definition conv0 (t : rtype) : list string := match convert_type 8 [] "Widget" t with Some l => l | None => [] end.
Example C25_example :
  map (fun a => (ta_types a, ta_key a, ta_ast a, ta_def a)) (convert_arguments conv0 (example_ft false)) =
  [(["Int"], "", false, false); (["String"], "", false, true); (["Untyped"], "", true, false); (["Symbol"], "", false, false);
   (["Int"], "j:", false, false); (["Int"], "k:", false, false); (["Float"], "o:", false, true)]
  /\ convert_arguments conv0 (example_ft true) = convert_arguments conv0 (example_ft false).
Proof. vm_compute. split; reflexivity. Qed.

(* the conversion of a type terminates on every document, type aliases that name each other included: fuel beyond the
   size of the type plus the sizes of the alias definitions is never exhausted *)
From RT Require Import Proofs.Rbs2JsonTermP.
Theorem C25_convert_type_terminates : forall f al cname t, rsize t + asize al < f -> convert_type f al cname t <> None.
Proof. exact convert_type_total. Qed.
Print Assumptions C25_convert_type_terminates.

Example C25_cyclic_aliases :
  convert_type 10 [("a", RT "alias" "b" [] None [] ""); ("b", RT "alias" "a" [] None [] "")] "Widget" (RT "alias" "a" [] None [] "") = Some ["Untyped"].
Proof. vm_compute. reflexivity. Qed.
