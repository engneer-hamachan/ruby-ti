(* C17 — block parameters get declared types and block locals stay local.
   The block scope is modelled as snapshot / bind parameters / run the body / restore (Model/Blocks.v); the body is
   arbitrary (assignments and nested blocks), the theorems hold whatever it does.  Proofs in BlocksP.v, BlockParamsP.v. *)
From RT Require Import Model.Blocks Proofs.BlocksP Model.BlockParams Proofs.BlockParamsP.

(* a variable first assigned inside the block — at any depth — is not bound after it *)
Theorem C17_locals_stay_local : forall A nil_t untyped_t is_unknown ps ds body e x,
  ~ In x ps -> aget e x = None -> aget (exec A nil_t untyped_t is_unknown (SBlk A ps ds body) e) x = None.
Proof.
  intros A nil_t untyped_t is_unknown ps ds body e x Hp Hx.
  destruct (exec_blk A nil_t untyped_t is_unknown ps ds body e) as [e2 E]. rewrite E.
  destruct (in_dec string_dec x ps); [contradiction|]. unfold has_key. rewrite Hx. reflexivity.
Qed.
Print Assumptions C17_locals_stay_local.

(* a parameter shadows an outer variable of the same name, which has its previous type after the block *)
Theorem C17_shadow_restored : forall A nil_t untyped_t is_unknown ps ds body e x t,
  In x ps -> aget e x = Some t -> is_unknown t = false ->
  aget (exec A nil_t untyped_t is_unknown (SBlk A ps ds body) e) x = Some t.
Proof.
  intros A nil_t untyped_t is_unknown ps ds body e x t Hp Hx Hu.
  destruct (exec_blk A nil_t untyped_t is_unknown ps ds body e) as [e2 E]. rewrite E.
  destruct (in_dec string_dec x ps); [|contradiction]. rewrite Hx, Hu. reflexivity.
Qed.
Print Assumptions C17_shadow_restored.

(* inside the block parameter i has the i-th declared type, surplus parameters are NilClass *)
Theorem C17_parameter_types : forall A nil_t ps ds e i p, NoDup ps -> nth_error ps i = Some p ->
  aget (set_params A nil_t e ps ds true) p = Some (match nth_error ds i with Some d => d | None => nil_t end).
Proof. exact set_params_spec. Qed.
Print Assumptions C17_parameter_types.

(* a receiver of union type: each of the n block variables gets the union, over the variants of the receiver, of what
   that variant's method declares for the position — NilClass where the variant declares fewer parameters *)
Theorem C17_union_receiver : forall A nil_t unify n rows i, rows <> [] -> i < n ->
  nth_error (union_declared A nil_t unify n rows) i = Some (unify (map (fun ds => nth i ds nil_t) rows)).
Proof. exact union_declared_spec. Qed.
Print Assumptions C17_union_receiver.

Example C17_union_example :
  union_declared string "NilClass" unify_printed 2 [["untyped"; "Float"]; ["Integer"]] = ["Union<untyped Integer>"; "Union<Float NilClass>"].
Proof. vm_compute. reflexivity. Qed.

(* "the type declared by the method's block_parameters, resolved against the receiver": on the model of
   appendParameterBeforeTypeCalculate (tied to the code through a hook, receiver compared afterwards).  Unify is the union of
   the receiver's element types; Flatten with at most one block variable is the same; with two or more block variables a
   receiver holding tuples [x1, ..., xk] gives variable j the type xj *)
Theorem C17_resolve_unify : forall count args recv p, t_tag p = UNIFY -> resolve_params count args recv [p] = [UnifyVariants recv].
Proof. exact resolve_unify. Qed.
Print Assumptions C17_resolve_unify.
Theorem C17_resolve_flatten_one : forall count args recv p, t_tag p = FLATTEN -> count <= 1 ->
  resolve_params count args recv [p] = [UnifyVariants recv].
Proof. exact resolve_flatten_one. Qed.
Print Assumptions C17_resolve_flatten_one.
Theorem C17_resolve_flatten_tuple : forall count args xs p, t_tag p = FLATTEN -> 2 <= count -> xs <> [] -> forallb plain xs = true ->
  resolve_params count args (MakeArray [MakeArray xs]) [p] = xs.
Proof. exact resolve_flatten_tuple. Qed.
Print Assumptions C17_resolve_flatten_tuple.

Example C17_resolve_example :
  let F := NewT "Flatten" FLATTEN (VStr "flatten") in
  map TypeToString (resolve_params 2 [] (MakeArray [MakeArray [MakeIntLit; MakeString "a"]]) [F]) = ["Integer"; "String"] /\
  map TypeToString (resolve_params 2 [] (MakeArray [MakeArray [MakeIntLit; MakeString "a"]; MakeFloatLit]) [F]) = ["Union<Integer Float>"; "Union<String NilClass>"] /\
  forallb plain [MakeIntLit; MakeString "a"] = true.
Proof. vm_compute. repeat split; reflexivity. Qed.

Example C17_example :
  let e := [("x", "String")] in
  let blk := SBlk string ["x"; "i"; "z"] ["Integer"; "Integer"]
                  [SSet string "loc" "Float"; SBlk string ["f"] ["Float"] [SSet string "deep" "Float"]; SSet string "x" "Symbol"] in
  let e' := exec string "NilClass" "untyped" (String.eqb "Unknown") blk e in
  (aget e' "x", aget e' "loc", aget e' "deep", aget e' "i") = (Some "String", None, None, Some "untyped").
Proof. vm_compute. reflexivity. Qed.
