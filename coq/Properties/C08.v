(* C08 — no false alarms on calls the configuration certainly accepts.  Proofs in Proofs/ArgsP.v. *)
From RT Require Import Model.CallSpec Proofs.ArgsP.

(* if the declaration admits every possible class of the argument — a union argument whose variants are
   all admitted included — the check passes *)
Theorem C08_argument_accepted : forall d a,
  flat d = true -> variants_of a <> [] ->
  forallb (decl_admits d) (possible a) = true ->
  check_arg_type fixed_args d a = true.
Proof. exact check_arg_type_complete. Qed.
Print Assumptions C08_argument_accepted.

(* accepted count + every argument fits => no error from checkAndPropagateArgs, in every round *)
Theorem C08_call_accepted : forall cr ra names t args,
  forallb plain_name names = true -> forallb plain_arg args = true -> forallb (declared t) names = true ->
  List.length args <= List.length names ->
  (forall i, i < List.length args ->
     check_arg_type fixed_args (nth i (map (param_ty t) names) zero_ty) (nth i args zero_ty) = true) ->
  (forall i, List.length args <= i < List.length names ->
     has_default (nth i (map (param_ty t) names) zero_ty) = true) ->
  check_args fixed_args cr ra names t args = (COk, t).
Proof.
  intros cr ra names t args Hn Ha Hd Hlen Hfit Hdef.
  rewrite (check_args_positional cr ra names t args Hn Ha Hd).
  rewrite pos_spec_accepts; [reflexivity | | apply zip_forall_nth, Hfit].
  apply andb_true_iff. rewrite map_length. split; [apply Nat.leb_le, Hlen|].
  apply (forallb_skipn_nth _ zero_ty). rewrite map_length. exact Hdef.
Qed.
Print Assumptions C08_call_accepted.

(* the spec predicate used end-to-end ("the call certainly fits") implies acceptance in every round *)
Theorem C08_certain_fit_accepted : forall cr ra ptys args,
  certainly_fits ptys args = true -> pos_spec cr ra ptys args = COk.
Proof. exact certainly_fits_accepted. Qed.
Print Assumptions C08_certain_fit_accepted.

(* the pinned code rejected a union argument that is a strict subset of the declared union: witness *)
Theorem C08_pinned_refuted :
  exists d a, flat d = true /\ variants_of a <> [] /\ forallb (decl_admits d) (possible a) = true /\
              check_arg_type pinned_args d a = false.
Proof.
  exists (MakeUnion [MakeAnyInt; MakeAnyString; MakeAnySymbol]), (MakeUnion [MakeAnyInt; MakeAnyString]).
  repeat split. discriminate.
Qed.

Example C08_hyps_satisfiable :
  forallb (decl_admits (MakeUnion [MakeAnyInt; MakeAnyString; MakeAnySymbol]))
          (possible (MakeUnion [MakeIntLit; MakeString "s"])) = true.
Proof. reflexivity. Qed.
