(* C16 — user classes: resolution, inheritance and visibility follow Ruby.
   Proved: the ancestor walk of method lookup terminates on every inheritance map (cycles included) and answers only
   with a class or module that Ruby's lookup reaches from the receiver's class — superclass chain, included modules
   (and what they include) for instance methods, extended modules (and what they include) for class methods.
   Completeness, `new`/initialize and visibility are exercised end to end.  Visibility sections: C22_tags.
   Proofs in LookupCompleteP.v. *)
From RT Require Import Model.Lookup Proofs.LookupCompleteP.

Theorem C16_lookup_terminates : forall has builtin m f static uv n, List.length uv < f ->
  exists r uv', plookup has builtin f m static uv n = Some (r, uv') /\ List.length uv' <= List.length uv.
Proof. exact plookup_total. Qed.
Print Assumptions C16_lookup_terminates.

Theorem C16_lookup_sound : forall has builtin m f static uv n x uv',
  plookup has builtin f m static uv n = Some (Some x, uv') -> answers has builtin m static n x.
Proof. intros has builtin m f static uv n x uv' H. apply answers_reaches. exact (plookup_sound _ _ _ _ _ _ _ _ _ H). Qed.
Print Assumptions C16_lookup_sound.

(* non-vacuity: Host includes Outer, Outer includes Inner, Inner defines the method *)
Definition mixin_map : inh_map :=
  [(("", "Host"), [{| pn_frame := ""; pn_class := "Outer"; pn_include := true; pn_extend := false |}]);
   (("", "Outer"), [{| pn_frame := ""; pn_class := "Inner"; pn_include := true; pn_extend := false |}])].
Example C16_transitive_include :
  plookup (fun n _ => fc_eqb n ("", "Inner")) [] 4 mixin_map false [("", "Host"); ("", "Outer"); ("", "Inner")] ("", "Host")
  = Some (Some ("", "Inner"), [("", "Inner")]).
Proof. vm_compute. reflexivity. Qed.

(* completeness: when the walk answers nothing, Ruby's lookup reaches no class or module that defines the method —
   on every inheritance map in which each node is searched in one way only (the visited set is keyed by the node) *)
Theorem C16_lookup_complete : forall has builtin m mode_of n st,
  moded_map builtin m mode_of -> mode_of n = st ->
  forall uv', plookup has builtin (S (List.length (universe m n))) m st (universe m n) n = Some (None, uv') ->
  forall x, ~ answers has builtin m st n x.
Proof.
  intros has builtin m mode_of n st WM <- uv' H x A. apply answers_reaches in A.
  exact (plookup_complete_universe _ _ _ _ _ _ WM H x A).
Qed.
Print Assumptions C16_lookup_complete.
