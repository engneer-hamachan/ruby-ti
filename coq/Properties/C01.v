(* C01 — the analyzer never crashes, whatever source it is given.
   What is proved: the driver skeleton for EVERY behaviour of the evaluator short of a Go fatal error
   (the evaluator itself is an oracle: each top-level step ends normally, with an error, or with a panic), the
   token layer, and the rendering of every type tag.  Proofs in Proofs/DriverP.v, ParserP.v, TablesP.v. *)
From RT Require Import Model.Driver Model.Parser Proofs.DriverP Proofs.LexerP Proofs.ParserP Proofs.TablesP Generated.

(* status 0; every line names the target file; every diagnostic is one line — plain and -i, any evaluator *)
Theorem C01_driver : forall fl preloads tfile tsrc articles,
  let '(lines, status, _) := run_driver fl preloads (tfile, tsrc) articles in
  status = 0%Z /\
  Forall (fun l => line_file l = tfile) lines /\
  Forall (fun l => match l with LDiag _ _ m => no_eol m = true | LInfo _ _ _ => True end) lines.
Proof. intros fl preloads. split; [reflexivity|]. apply Forall_and_inv, (printed_ok fl preloads). Qed.
Print Assumptions C01_driver.

(* a panic inside the evaluator is a diagnostic, never the end of the process *)
Theorem C01_panic_is_diagnostic : forall file row msg infos,
  po_errors (eval_loop true file [{| st_row := row; st_out := OPanic msg; st_infos := infos |}] empty_out) =
  [LDiag file row (escape_msg ("internal error: " ++ msg))].
Proof. reflexivity. Qed.
Print Assumptions C01_panic_is_diagnostic.

(* parser.Read never answers `read error`, on any rune sequence *)
Theorem C01_read_total :
  forall is_uspace is_udigit is_uupper is_ulower builtin_classes,
  is_uspace 0%N = false -> is_udigit 0%N = false -> is_uspace ch_dot = false ->
  (forall c, is_udigit c = true -> ((c =? 120) || (c =? 111) || (c =? 98))%N = false /\ (c =? ch_under)%N = false /\ (c =? ch_dot)%N = false) ->
  forall fuel p, inv is_udigit (rd (lx p)) -> pwf p -> (phi (rd (lx p)) + 3 < fuel)%nat ->
  exists r p', parser_read is_uspace is_udigit is_uupper is_ulower fixed_lex builtin_classes fuel p = Some (r, p') /\ r <> RError.
Proof.
  intros sp dg up lo bc H1 H2 H3 H4 fuel p Hi Hw Hf.
  destruct (parser_read_ok sp dg up lo fixed_lex bc eq_refl eq_refl eq_refl H1 H2 H3 H4 fuel p Hi Hw Hf) as (r & p' & Hr & Hne & _).
  exists r, p'. split; assumption.
Qed.
Print Assumptions C01_read_total.

(* every type tag the source declares is rendered by TypeToString (no "type convert error" panic) *)
Theorem C01_render_total :
  type_const_names = "EOS"%string :: map tag_name Model.Ty.all_tags /\
  forallb (fun n => existsb (String.eqb n) type_to_string_cases) (map tag_name Model.Ty.all_tags) = true.
Proof. exact tbl_type_tags. Qed.
Print Assumptions C01_render_total.
