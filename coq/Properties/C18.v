(* C18 — preloaded files act like a prefix whose diagnostics are hidden (driver part).
   Proved on the driver skeleton: what is printed is a function of the target's check-round steps and of the
   recorded definitions of the target file; no line names a preloaded file.  That the target's steps are the ones
   of the concatenation (the evaluator's global state carries over, its parser-local state does not matter) is the
   evaluator's business and is evaluated end-to-end. *)
From RT Require Import Model.Driver Proofs.DriverP.

Theorem C18_preloads_print_nothing : forall fl preloads preloads' target articles,
  fst (fst (run_driver fl preloads target articles)) = fst (fst (run_driver fl preloads' target articles)).
Proof. intros fl preloads preloads' [tfile tsrc] articles. reflexivity. Qed.
Print Assumptions C18_preloads_print_nothing.

Theorem C18_no_line_for_a_preload : forall fl preloads tfile tsrc articles,
  Forall (fun l => line_file l = tfile) (fst (fst (run_driver fl preloads (tfile, tsrc) articles))).
Proof.
  intros fl preloads tfile tsrc articles. eapply Forall_impl; [|apply printed_ok]. intros l [H _]. exact H.
Qed.
Print Assumptions C18_no_line_for_a_preload.

(* definitions recorded while preloaded files were parsed give no -i hint for the target (repaired code) *)
Theorem C18_foreign_definitions_hidden : forall fl preloads tfile tsrc articles extra,
  Forall (fun a => fst (fst a) <> tfile) extra ->
  fst (fst (run_driver fl preloads (tfile, tsrc) (articles ++ extra))) = fst (fst (run_driver fl preloads (tfile, tsrc) articles)).
Proof. intros. rewrite 2 run_driver_lines, defs_of_foreign by assumption. reflexivity. Qed.
Print Assumptions C18_foreign_definitions_hidden.

(* rows rebased: when every row of the target's steps and of its recorded definitions moves by k — the target analysed
   after a k-line prefix — every printed line moves by k: same lines, same order, same texts *)
Theorem C18_rows_rebased : forall fl preloads tfile tsrc articles k,
  fst (fst (run_driver fl preloads (tfile, shift_src k tsrc) (map (shift_article k tfile) articles)))
  = map (shift_line k) (fst (fst (run_driver fl preloads (tfile, tsrc) articles))).
Proof.
  intros fl preloads tfile tsrc articles k. rewrite 2 run_driver_lines. unfold shift_src. rewrite defs_shift.
  rewrite (flat_map_maps _ (shift_line k) (step_infos tfile)), (flat_map_maps _ (shift_line k) (step_errors true tfile)).
  - destruct (fl_define_info fl); rewrite !map_app; reflexivity.
  - intros st. unfold step_errors. cbn [shift_step st_out st_row]. destruct (fatal_msg (st_out st)); reflexivity.
  - intros st. unfold step_infos. cbn [shift_step st_infos]. rewrite !map_map. reflexivity.
Qed.
Print Assumptions C18_rows_rebased.

(* non-vacuity: a target with one error step and one hint, a definition of its own and one recorded from a preload,
   analysed after a 7-line prefix *)
Example C18_rows_rebased_example :
  let src := fun _ : string => [{| st_row := 2%Z; st_out := OErr "boom"; st_infos := [(1%Z, "hint")] |}] in
  let arts := [("m.rb", 3%Z, "def a"); ("p.rb", 1%Z, "def b")] in
  fst (fst (run_driver {| fl_define_info := true |} [] ("m.rb", shift_src 7 src) (map (shift_article 7 "m.rb") arts)))
  = [LInfo "m.rb" 8%Z "hint"; LInfo "m.rb" 10%Z "def a"; LDiag "m.rb" 9%Z "boom"].
Proof. vm_compute. reflexivity. Qed.
