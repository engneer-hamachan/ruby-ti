(* C20 — declarations for classes a program never mentions do not affect it.  Proofs in Proofs/LoaderP.v. *)
From Coq Require Import Permutation.
From RT Require Import Model.Loader Model.Parser Proofs.LoaderP.

(* no method lookup on a class of the base configuration changes, wherever the extra files sort *)
Theorem C20_method_lookups_unchanged : forall cfg extra f c m s,
  forallb (fun cd => negb (mentions cd f c)) extra = true ->
  forall cfg', Permutation cfg' (cfg ++ extra) -> NoDup (map class_id cfg') ->
  methods_at (load cfg') (f, c, m, s) = methods_at (load cfg) (f, c, m, s).
Proof.
  intros cfg extra f c m s Hex cfg' Hp Hnd.
  rewrite !load_methods, (spec_methods_perm _ _ _ Hp Hnd), spec_methods_app, (spec_methods_other _ _ _ _ _ Hex).
  apply app_nil_r.
Qed.
Print Assumptions C20_method_lookups_unchanged.

(* nor does the parent list of any class the extra files do not declare *)
Theorem C20_parents_unchanged : forall extra w n,
  forallb (fun cd => negb (mentions cd (fst n) (snd n))) extra = true ->
  edges_at (fold_left load_one extra w) n = edges_at w n.
Proof.
  intros extra w n Hex. rewrite forallb_forall in Hex. apply (fold_left_keeps (fun w => edges_at w n)).
  intros w' cd Hin. apply load_one_edges_other, negb_true_iff, Hex, Hin.
Qed.
Print Assumptions C20_parents_unchanged.

(* the token classifier consults BuiltinClasses by name only: a name the extra classes do not carry is
   classified as before *)
Theorem C20_classification_unchanged : forall up lo (bc extra : list (list N)) (s : list N),
  existsb (list_N_eqb s) extra = false ->
  classify up lo (bc ++ extra) s = classify up lo bc s.
Proof.
  intros up lo bc extra s H. unfold classify, is_class_name, is_const_name, in_builtin.
  rewrite !existsb_app, H, !orb_false_r. reflexivity.
Qed.
Print Assumptions C20_classification_unchanged.

Example C20_hyps_satisfiable :
  forallb (fun cd => negb (mentions cd "Builtin" "K"))
          [ {| cd_frame := "Zed"; cd_class := "K"; cd_ims := []; cd_cms := []; cd_consts := []; cd_extends := [] |} ] = true.
Proof. reflexivity. Qed.
