(* C21 — equivalent type notations in config mean the same thing.
   Each statement is an instance of a lemma of Proofs/C21P.v or Proofs/ConfigP.v, or a fact of the regenerated
   table.  The parsed `ty` carries every field the rest of the analyzer reads, so equal parses give equal
   diagnostics, types and signatures. *)
From RT Require Import Model.Config Proofs.StrsP Proofs.ConfigP Proofs.C21P Generated.

(* "A|B|…" ≡ ["A","B",…] (return types) *)
Theorem C21_union_return : forall a b r c d p,
  Forall part_ok (a :: b :: r) ->
  plain_head (join_char c_bar (a :: b :: r)) = true ->
  parse_return_type (mkret [join_char c_bar (a :: b :: r)] c d p) =
  parse_return_type (mkret (a :: b :: r) c d p).
Proof. intros. apply return_union, pts_alternatives; assumption. Qed.
Print Assumptions C21_union_return.

(* "A|B|…" ≡ ["A","B",…] (arguments) *)
Theorem C21_union_arg : forall a b r k ast def,
  Forall part_ok (a :: b :: r) ->
  plain_head (join_char c_bar (a :: b :: r)) = true ->
  is_name_space (join_char c_bar (a :: b :: r)) = false ->
  parse_argument fixed_cfg (mkarg [join_char c_bar (a :: b :: r)] k ast def) =
  parse_argument fixed_cfg (mkarg (a :: b :: r) k ast def).
Proof. exact (union_arg fixed_cfg). Qed.
Print Assumptions C21_union_arg.

(* "?T" (return) ≡ [T, "NilClass"] *)
Theorem C21_opt_return : forall T c d p,
  T <> "" ->
  parse_return_type (mkret [String c_q T] c d p) = parse_return_type (mkret [T; "NilClass"] c d p).
Proof. intros T c d p HT. apply return_union, pts_opt, HT. Qed.
Print Assumptions C21_opt_return.

(* "?T" (argument) ≡ T with is_default — every T, composite included *)
Theorem C21_opt_arg : forall T k ast def,
  T <> "" -> arg_plain T = true ->
  parse_argument fixed_cfg (mkarg [String c_q T] k ast def) =
  parse_argument fixed_cfg (mkarg [T] k ast true).
Proof. intros. apply opt_arg; [assumption..|apply orb_true_r]. Qed.
Print Assumptions C21_opt_arg.

(* "*T" (argument) ≡ T with is_asterisk — every T, composite included *)
Theorem C21_ast_arg : forall T k ast def,
  T <> "" -> arg_plain T = true ->
  parse_argument fixed_cfg (mkarg [String c_star T] k ast def) =
  parse_argument fixed_cfg (mkarg [T] k true def).
Proof. intros. apply ast_arg; [assumption..|apply orb_true_r]. Qed.
Print Assumptions C21_ast_arg.

(* "[T]" ≡ array of T, and the three named arrays *)
Theorem C21_array : forall T,
  T <> "" -> parse_type_string (String c_lb (T ++ "]")) = MakeArray [parse_type_string T].
Proof. exact pts_array. Qed.
Print Assumptions C21_array.

Theorem C21_named_arrays :
  parse_type_string "[String]" = parse_type_string "StringArray" /\
  parse_type_string "[Int]" = parse_type_string "IntArray" /\
  parse_type_string "[Float]" = parse_type_string "FloatArray".
Proof. vm_compute. repeat split; reflexivity. Qed.
Print Assumptions C21_named_arrays.

(* "Int" ≡ "Integer" *)
Theorem C21_int_integer : parse_type_string "Int" = parse_type_string "Integer".
Proof. vm_compute. reflexivity. Qed.
Print Assumptions C21_int_integer.

(* OptionalX / DefaultX ≡ their expansions *)
Theorem C21_optional_names : forall c d p,
  parse_return_type (mkret ["OptionalString"] c d p) = parse_return_type (mkret ["String"; "NilClass"] c d p) /\
  parse_return_type (mkret ["OptionalInt"] c d p) = parse_return_type (mkret ["Int"; "NilClass"] c d p) /\
  parse_return_type (mkret ["OptionalFloat"] c d p) = parse_return_type (mkret ["Float"; "NilClass"] c d p).
Proof. intros. split; [|split]; apply return_union; vm_compute; reflexivity. Qed.
Print Assumptions C21_optional_names.

Theorem C21_default_names : forall k ast def,
  Forall (fun X => parse_argument fixed_cfg (mkarg [("Default" ++ X)%string] k ast def) =
                   parse_argument fixed_cfg (mkarg [X] k ast true))
         ["Bool"; "Block"; "Untyped"; "String"; "Int"; "Float"].
Proof. intros. repeat constructor; apply default_arg; try discriminate; vm_compute; reflexivity. Qed.
Print Assumptions C21_default_names.

(* the pinned (pre-fix) parser violates the two prefix equivalences for composite T: kept so that
   a regression to that behaviour has a ready witness *)
Theorem C21_opt_arg_pinned_refuted :
  exists T, T <> "" /\ arg_plain T = true /\
    parse_argument pinned_cfg (mkarg [String c_q T] "" false false) <>
    parse_argument pinned_cfg (mkarg [T] "" false true).
Proof. exists "Int|String". split; [discriminate|]. split; [reflexivity|]. vm_compute. discriminate. Qed.

Theorem C21_ast_arg_pinned_refuted :
  exists T, T <> "" /\ arg_plain T = true /\
    parse_argument pinned_cfg (mkarg [String c_star T] "" false false) <>
    parse_argument pinned_cfg (mkarg [T] "" true false).
Proof. exists "Int|String". split; [discriminate|]. split; [reflexivity|]. vm_compute. discriminate. Qed.

(* non-vacuity: the hypotheses are satisfiable by ordinary notations *)
Example C21_hyps_satisfiable :
  Forall part_ok ["Int"; "String"; "K"] /\ plain_head (join_char c_bar ["Int"; "String"; "K"]) = true /\
  arg_plain "Int|[String]" = true.
Proof. repeat constructor. Qed.
