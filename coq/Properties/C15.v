(* C15 — user method parameter and return types are inferred from all call sites.
   The reference rule: a parameter's type is the union (T.AppendVariant) of the argument types of all call sites; the
   type of a call is the union of the body's result and the explicit return values.  Proved: that union covers every
   call site (scalar argument types).  How ti reaches it — four rounds of replace-or-union in
   propagationForCalledTo — is exercised end to end, not modelled.  Proofs in InferP.v, ReturnsP.v, PropagateCoverP.v. *)
From RT Require Import Model.Infer Proofs.InferP Model.Returns Proofs.ReturnsP Model.Propagate Proofs.PropagateP Proofs.PropagateCoverP.

Theorem C15_parameter_covers_call_sites : forall n args a, forallb scalar args = true -> In a args ->
  exists v, In v (t_vars (fold_left (fun acc v => append_variant (S n) acc v) args (MakeUnion []))) /\ same_kind v a = true.
Proof. exact parameter_union_covers. Qed.
Print Assumptions C15_parameter_covers_call_sites.

(* ... and holds nothing else: one variant per distinct class among the call sites *)
Theorem C15_parameter_is_the_union : forall n args, forallb scalar args = true ->
  fold_left (fun acc v => append_variant (S n) acc v) args (MakeUnion []) = MakeUnion (distinct_kinds [] args).
Proof. intros n args H. exact (union_of_scalars n args [] H). Qed.
Print Assumptions C15_parameter_is_the_union.

Example C15_example :
  map t_cls (t_vars (fold_left (fun acc v => AppendVariant acc v) [MakeIntLit; MakeString "s"; MakeIntLit] (MakeUnion []))) = ["Integer"; "String"].
Proof. vm_compute. reflexivity. Qed.

(* "A call returns the type of the body's result, including explicit `return` values": on the model of the return
   collection (parser.AppendLastReturnT, Return.Evaluation, Def.evaluationBody, the block of a lambda), the type of a
   method holds exactly the value of the body's last statement and the `return` values written outside lambdas — at any
   depth of blocks — and nothing else *)
Theorem C15_returns_collected : forall body x,
  In x (method_type true body) <-> In x (flat_map outer_returns body) \/ x = last_value body.
Proof. exact method_type_exact. Qed.
Print Assumptions C15_returns_collected.

Example C15_returns_example :
  method_type true [RReturn "Symbol"; RLambda [RReturn "String"]; RBlock [RReturn "Integer"] "Array<Integer>"] = ["Symbol"; "Integer"; "Array<Integer>"].
Proof. vm_compute. reflexivity. Qed.

(* How ti reaches the union, one round at a time: on the model of propagationForCalledTo for a parameter of a user-defined
   method (Model/Propagate.v: the table entry is the type and its Round tag), the call sites of ONE round — evaluated in
   any number, starting from a parameter nothing is known about — leave the parameter with exactly the distinct types of
   their arguments, in order of first occurrence.  `dom` is any set of scalar argument types on which T.IsMatchType is
   equality of tag and class. *)
Theorem C15_round_collects : forall V bm r (dom : ty -> Prop),
  (forall a, dom a -> arg_ok a = true) -> (forall a b, dom a -> dom b -> is_match_type a b = same_kind a b) ->
  forall args, args <> [] -> Forall dom args ->
  exists dt, round_run V bm r None args = Some (dt, r) /\ map kind (variants_or_self dt) = map kind (distinct_kinds [] args).
Proof. exact round_collects. Qed.
Print Assumptions C15_round_collects.

(* ... but the first call site of a NEW round replaces what the previous round collected: the four rounds reach the union
   of all call sites only if each round reaches every call site again (the kept finding C15-call-before-def lives there).
   The pinned code also CHECKED that call site against the type of the earlier round — a false `type mismatch` that ended the
   walk over the remaining parameters, so that n parameters needed n+1 rounds (the former finding C15-round-heuristic);
   the repaired code accepts it. *)
Theorem C15_new_round_replaces :
  let I := set_inf (Ty INT "Integer" VInt64 None "" "" "" [] no_flags "" "" "" [] [] []) true in
  let S := Ty STRING "String" (VStr "s") None "" "" "" [] no_flags "" "" "" [] [] [] in
  propagate pinned_prop false "check" (Some (I, "inference")) S = (false, Some (set_inf S true, "check")) /\
  propagate fixed_prop false "check" (Some (I, "inference")) S = (true, Some (set_inf S true, "check")).
Proof. vm_compute. split; reflexivity. Qed.
Print Assumptions C15_new_round_replaces.

(* ... and from ANY state earlier rounds may have left — no entry, or an inferred single type or union (wf_ty), under any
   Round tag — the call sites of a round leave the parameter admitting the argument of every one of them: what a round
   replaces (the first call site of a new round; the two-variant heuristic) it replaces before it has recorded anything
   of this round.  This is the per-round form of "covers the union of the argument types at all call sites". *)
Theorem C15_round_covers : forall V bm r (dom : ty -> Prop), (forall a, dom a -> arg_ok a = true) ->
  forall e args a, start_ok e -> Forall dom args -> In a args -> covered (round_run V bm r e args) a.
Proof. exact round_covers. Qed.
Print Assumptions C15_round_covers.

Example C15_round_covers_example :
  let I := Ty INT "Integer" VInt64 None "" "" "" [] no_flags "" "" "" [] [] [] in
  let S := Ty STRING "String" (VStr "s") None "" "" "" [] no_flags "" "" "" [] [] [] in
  let U := set_inf (MakeUnion [MakeUntyped; I]) true in
  start_ok (Some (U, "inference")) /\
  option_map (fun e => (map t_cls (variants_or_self (fst e)), snd e)) (round_run fixed_prop false "check" (Some (U, "inference")) [I; S]) =
    Some (["Integer"; "String"], "check") /\
  option_map (fun e => (map t_cls (variants_or_self (fst e)), snd e)) (round_run fixed_prop false "check" (Some (U, "inference")) [S; I]) =
    Some (["Untyped"; "Integer"; "String"], "inference").
Proof.
  intros I S U. split; [|split; vm_compute; reflexivity].
  repeat split. right. repeat split. apply le_n.
Qed.

Example C15_round_example :
  let I := Ty INT "Integer" VInt64 None "" "" "" [] no_flags "" "" "" [] [] [] in
  let S := Ty STRING "String" (VStr "s") None "" "" "" [] no_flags "" "" "" [] [] [] in
  let K := Ty OBJECT "K" (VStr "K") None "" "" "" [] no_flags "" "" "" [] [] [] in
  let dom := fun a => In a [I; S; K] in
  (forall a, dom a -> arg_ok a = true) /\ (forall a b, dom a -> dom b -> is_match_type a b = same_kind a b) /\
  option_map (fun e => map t_cls (variants_or_self (fst e))) (round_run fixed_prop false "check" None [I; S; I; K; S]) = Some ["Integer"; "String"; "K"].
Proof.
  intros I S K dom. split; [|split].
  - intros a [<-|[<-|[<-|[]]]]; reflexivity.
  - intros a b [<-|[<-|[<-|[]]]] [<-|[<-|[<-|[]]]]; reflexivity.
  - vm_compute. reflexivity.
Qed.
