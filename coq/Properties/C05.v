(* C05 — same input, same output.  Go's map iteration is an adversary: it may deliver the entries of a map
   in any order (any permutation).  Proofs in Proofs/SortP.v, Proofs/SigsP.v. *)
From Coq Require Import Permutation.
From RT Require Import Model.Sigs Proofs.SortP Proofs.SigsP Generated.

(* the two listings every ordered output mode is computed from are the same for any two iteration orders *)
Theorem C05_listing_by_method_canonical : forall vals vals',
  Permutation vals vals' -> sorted_by_method vals = sorted_by_method vals'.
Proof. intros vals vals'. apply sort_perm, le_by_method_order. Qed.
Print Assumptions C05_listing_by_method_canonical.

Theorem C05_listing_by_class_canonical : forall vals vals',
  Permutation vals vals' -> sorted_by_class vals = sorted_by_class vals'.
Proof. intros vals vals'. apply sort_perm, le_by_class_order. Qed.
Print Assumptions C05_listing_by_class_canonical.

(* hence every output that is a function of a sorted listing (--hover, --suggest, --llm-define, --llm-class,
   --llm-nav with and without --target/--all) is byte-identical under any iteration order *)
Theorem C05_modes_deterministic : forall (Out : Type) (printer : list sig -> list sig -> Out) vals vals',
  Permutation vals vals' ->
  printer (sorted_by_method vals) (sorted_by_class vals) = printer (sorted_by_method vals') (sorted_by_class vals').
Proof.
  intros Out printer vals vals' Hp.
  rewrite (C05_listing_by_method_canonical vals vals' Hp), (C05_listing_by_class_canonical vals vals' Hp). reflexivity.
Qed.
Print Assumptions C05_modes_deterministic.

(* every `for … range <map>` in the current source is one of the audited sites (sorted afterwards, commutative
   body, or --define whose line order is free): a new or moved map iteration breaks this theorem *)
Theorem C05_sites : sites_eqb audited_sites map_range_sites = true.
Proof. exact sites_audited. Qed.
Print Assumptions C05_sites.

(* the comparators are total orders: ties are impossible between different signatures *)
Theorem C05_comparators_total : total_order le_by_method /\ total_order le_by_class.
Proof. exact (conj le_by_method_order le_by_class_order). Qed.
Print Assumptions C05_comparators_total.

Example C05_hyps_satisfiable :
  Permutation [Sig "a" "d" "" "K" false false "f" 1 ""; Sig "a" "d" "" "K" true false "f" 1 ""]
              [Sig "a" "d" "" "K" true false "f" 1 ""; Sig "a" "d" "" "K" false false "f" 1 ""].
Proof. apply perm_swap. Qed.
