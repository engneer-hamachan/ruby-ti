(* C10 — nil? / is_a? narrowing is exact inside branches and undone afterwards.
   A type is the list of the classes of its variants; `minus` removes classes.  For `if C` / `unless C` with C an
   && chain of tests, each on its own variable.  The single conditional follows from conditional_own (NarrowP.v), the
   elsif chains from elsif_chain_sees (NarrowElsifP.v), which says what every branch sees for tests of either
   polarity; what soundness needs beside it is in NarrowSoundP.v. *)
From RT Require Import Model.Narrow Proofs.NarrowP Proofs.NarrowElsifP Proofs.NarrowSoundP.

(* inside the branch of the condition every tested variable has exactly the variants its test admits *)
Theorem C10_then_exact : forall k c e t, NoDup (map t_var c) -> In t c ->
  ty_of (fst (fst (conditional k c e))) (t_var t) = admit_then k t (ty_of e (t_var t)).
Proof. intros k c e t Hnd Hin. exact (proj1 (conditional_own k c e t Hnd Hin)). Qed.
Print Assumptions C10_then_exact.

(* the else branch of a single test sees the complement *)
Theorem C10_else_exact : forall k t e,
  ty_of (snd (fst (conditional k [t] e))) (t_var t) = admit_else k t (ty_of e (t_var t)).
Proof.
  intros k t e. rewrite (proj2 (conditional_own k [t] e t (NoDup_cons _ (@in_nil _ _) (NoDup_nil _)) (or_introl eq_refl))).
  unfold admit_else, exclude. destruct k; destruct (positive _ t); reflexivity.
Qed.
Print Assumptions C10_else_exact.

(* the else branch of `if a && b && ...` admits every variant of every tested variable *)
Theorem C10_else_of_conjunction : forall c e t, NoDup (map t_var c) -> 2 <= List.length c -> In t c ->
  ty_of (snd (fst (conditional KIf c e))) (t_var t) = ty_of e (t_var t).
Proof.
  intros c e t Hnd Hlen Hin. rewrite (proj2 (conditional_own KIf c e t Hnd Hin)), (proj2 (Nat.ltb_lt 1 _) Hlen).
  apply minus_nil.
Qed.
Print Assumptions C10_else_of_conjunction.

(* after `end` every variable has its pre-conditional type again — for EVERY condition, also one that tests a
   variable several times (the restore closures run last to first) *)
Theorem C10_restore : forall k c e x, ty_of (snd (conditional k c e)) x = ty_of e x.
Proof. exact conditional_restores. Qed.
Print Assumptions C10_restore.

(* elsif chains: after `end` every variable has its pre-chain type again — for every number of elsif branches and
   every condition in each (also variables tested only in an elsif condition), with or without else *)
Theorem C10_chain_restore : forall c0 cs has_else e x, ty_of (snd (chain true c0 cs has_else e)) x = ty_of e x.
Proof. exact chain_restores. Qed.
Print Assumptions C10_chain_restore.

(* the pinned code dropped the restore closures of the elsif conditions (repaired by a fix: commit) *)
Theorem C10_chain_pinned_refuted : exists c0 cs e x, ty_of (snd (chain false c0 cs false e)) x <> ty_of e x.
Proof.
  exists [{| t_var := "x"; t_cls := "NilClass"; t_neg := false |}],
         [[{| t_var := "y"; t_cls := "NilClass"; t_neg := false |}]],
         [("x", ["NilClass"; "String"]); ("y", ["NilClass"; "Integer"])], "y".
  vm_compute. discriminate.
Qed.
Print Assumptions C10_chain_pinned_refuted.

(* `if t0; elsif t1; ...; [else;] end` with positive tests (x.nil? / x.is_a?(C)) on the same or on different
   variables, any number of branches: branch i sees its own variable as exactly the tested class and every other
   variable without the classes that branches 0..i-1 took from it (BranchOK / branches_ok, `taken`); the else branch
   sees every variable without everything the chain took from it *)
Theorem C10_elsif_exact : forall t0 ts he e, all_pos (t0 :: ts) = true ->
  exists brs ee ea, chain true [t0] (map (fun t => [t]) ts) he e = (brs, ee, ea) /\
    branches_ok e [] (t0 :: ts) brs /\
    (he = true -> exists b, ee = Some b /\ forall y, ty_of b y = minus (ty_of e y) (taken (t0 :: ts) y)).
Proof.
  intros t0 ts he e Hp. destruct (elsif_chain_sees t0 ts he e) as (brs & ee & ea & E & B & He).
  exists brs, ee, ea. split; [exact E|]. split; [exact (sees_ok e _ [] brs eq_refl Hp B)|].
  intros H. destruct (He H) as (b & Eb & Hb). exists b. split; [exact Eb|].
  intros y. rewrite Hb, (excluded_pos _ _ _ Hp). reflexivity.
Qed.
Print Assumptions C10_elsif_exact.

(* the same chains with tests of EITHER polarity (`!x.nil?`, `!x.is_a?(C)` too): narrowing is sound — a variant of a
   variable that no earlier branch has taken (`taken_by`), and that passes the branch's own test when the test is on
   this variable, is in the variable's type in that branch (BranchSound / branches_sound); a variant that no branch has
   taken is in its type in the else branch.  (After a negated test ti may keep variants that cannot reach a later
   branch: such branches are unreachable in Ruby.) *)
Theorem C10_elsif_sound : forall t0 ts he e,
  exists brs ee ea, chain true [t0] (map (fun t => [t]) ts) he e = (brs, ee, ea) /\
    branches_sound e [] (t0 :: ts) brs /\
    (he = true -> exists b, ee = Some b /\
       forall y v, In v (ty_of e y) -> taken_by (t0 :: ts) y v = false -> In v (ty_of b y)).
Proof.
  intros t0 ts he e. destruct (elsif_chain_sees t0 ts he e) as (brs & ee & ea & E & B & He).
  exists brs, ee, ea. split; [exact E|]. split; [exact (sees_sound e _ [] brs B)|].
  intros H. destruct (He H) as (b & Eb & Hb). exists b. split; [exact Eb|].
  intros y v Hv Ht. rewrite Hb. exact (untaken_left _ _ _ _ Hv Ht).
Qed.
Print Assumptions C10_elsif_sound.

Example C10_elsif_example :
  let e := [("x", ["NilClass"; "String"; "Integer"]); ("y", ["Integer"; "Float"])] in
  let t x c := {| t_var := x; t_cls := c; t_neg := false |} in
  let '(brs, ee, ea) := chain true [t "x" "NilClass"] [[t "y" "Float"]; [t "x" "String"]] true e in
  (map (fun b => (ty_of b "x", ty_of b "y")) brs, option_map (fun b => (ty_of b "x", ty_of b "y")) ee, (ty_of ea "x", ty_of ea "y")) =
  ([(["NilClass"], ["Integer"; "Float"]); (["String"; "Integer"], ["Float"]); (["String"], ["Integer"])],
   Some (["Integer"], ["Integer"]), (["NilClass"; "String"; "Integer"], ["Integer"; "Float"])).
Proof. vm_compute. reflexivity. Qed.

Example C10_example :
  let e := [("x", ["NilClass"; "String"]); ("y", ["Integer"; "String"; "Float"])] in
  let c := [{| t_var := "x"; t_cls := "NilClass"; t_neg := true |}; {| t_var := "y"; t_cls := "String"; t_neg := false |}] in
  let '(e1, e2, e3) := conditional KIf c e in
  (ty_of e1 "x", ty_of e1 "y", ty_of e2 "x", ty_of e2 "y", ty_of e3 "x", ty_of e3 "y") =
  (["String"], ["String"], ["NilClass"; "String"], ["Integer"; "String"; "Float"], ["NilClass"; "String"], ["Integer"; "String"; "Float"]).
Proof. vm_compute. reflexivity. Qed.
