(* C12 — analyzing a program never alters configured builtin signatures.
   T values are heap cells; the loader allocated the table's cells before the program runs (they lie below
   `next h`).  The two paths through which a call could write to such a cell are modelled with the heap explicit
   (Model/Heap.v); `preserved n h h'` says that every cell below n is in h' what it was in h.  Proofs in HeapP.v. *)
From RT Require Import Model.Heap Proofs.HeapP.

(* a call on a union receiver — any method entries, any AppendVariant, any IsMatchType — leaves every existing
   cell as it was *)
Theorem C12_union_call_frame : forall append matches h mts,
  preserved (next h) h (fst (union_accumulate fixed_heap append matches h mts)).
Proof. intros append matches h mts. exact (proj1 (union_accumulate_safe append matches h mts)). Qed.
Print Assumptions C12_union_call_frame.

(* any sequence of destructive calls and assignments leaves every existing cell as it was *)
Theorem C12_destructive_frame : forall h ss, preserved (next h) h (fst (run_stmts fixed_heap h ss)).
Proof. intros h ss. exact (proj1 (run_stmts_safe h ss)). Qed.
Print Assumptions C12_destructive_frame.

(* the pinned code: Integer#* (returns Integer) and String#* (returns String) on x : Union<Integer String> *)
Definition int_t : ty := Ty INT "Integer" VOther None "" "Builtin" "*" [] no_flags "" "" "" [] [] [].
Definition str_union_t : ty := MakeUnion [Ty STRING "String" (VStr "String") None "" "Builtin" "*" [] no_flags "" "" "" [] [] []; int_t].
Definition table_heap : heap := {| cells := [(0, str_union_t); (1, int_t)]; next := 2 |}.
Theorem C12_pinned_union_refuted :
  hget (fst (union_accumulate pinned_heap (fun a b => MakeUnion (t_vars a ++ [b])) (fun _ _ => false) table_heap [0; 1])) 0
  <> hget table_heap 0.
Proof. vm_compute. discriminate. Qed.

(* the pinned code: u = User.new; u.save!; u = User.new  overwrites the entry of save! *)
Definition user_t : ty := MakeObject "User".
Theorem C12_pinned_destructive_refuted :
  hget (fst (run_stmts pinned_heap table_heap [SAssign "u" user_t; SDestructive "u" 1 false; SAssign "u" user_t])) 1 = user_t
  /\ hget table_heap 1 = int_t.
Proof. vm_compute. split; reflexivity. Qed.
Example C12_fixed_example :
  hget (fst (run_stmts fixed_heap table_heap [SAssign "u" user_t; SDestructive "u" 1 false; SAssign "u" user_t])) 1 = int_t.
Proof. vm_compute. reflexivity. Qed.
